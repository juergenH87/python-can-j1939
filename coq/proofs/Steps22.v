(* Steps22.v — the handlers of Model22 one step at a time; the theorems about the FD transport layer go through these
   instead of unfolding the handlers.
   * [dt_frame]: what the frame builder returns for a segment that fits.
   * [process_tp_dt22]: a frame is ignored or is the segment its session expects ([dt22_cases]); for the expected segment ONE
     equation with the handler's branches as an if/match on the session ([dt22_step]), and its reading [dt22_accepted].
   * [process_tp_cm22]: one equation per control byte for the session the frame is for (a granting CTS, the acknowledgement,
     an announcement here; the RTS is Tp22Resp.responder22_rts_opens, the end-of-message status Tp22Proofs.eom_status_flat).
     The remaining branches (hold, frame without session, abort, short or unknown frame) have no equation.
   * [snd_pass22] on [key :: ks] with the session present: passed over ([snd_pass22_keep]) or due ([snd_pass22_due], ONE
     equation, the branch named by [snd22_class] of the state); [release22] is the exit that returns the session number.
     ([rcv_pass22] and [mpg_pass] have no equations: their users open them.)
   * [fd_burst] on [S f] with the session present: one turn ([fd_burst_S], through [fd_next]), and the turn with everything
     at hand ([fd_burst_row]).
   * [send_pgn22] on a group number given by its fields in range ([pgn_mk_small]) and a payload too long for one frame:
     the session it opens ([send_pgn22_long]).  The short payload (the multi-PG path) has no equation.
   Emissions are written as the handler writes them ([Emit]) or, on the flat run, as
   [let '(m', os, r) := flat22 (k ..) in (m', o :: os, r)]; there is no counterpart of Steps21.pre. *)
From J1939 Require Import Base CodecGlue Model21 Model22.
From J1939.gen Require Import Codec Tp21Gen CaGen Tp22Gen.
From J1939P Require Import CodecProofs Flat MpgProofs.
Local Arguments Z.add : simpl never.
Local Arguments Z.sub : simpl never.
Local Arguments Z.mul : simpl never.

(* ---------------------------------------------------------------- the data-frame builder *)
Lemma dt_frame_inv src dst s k seg fr seg' :
  dt_frame src dst s k seg = Some (fr, seg') ->
  exists rest,
    fr = {| f_id := tp22_dt_id src dst; f_ext := true; f_fd := true; f_data := tp22_dt_header s k 0 ++ rest |} /\
    ((length seg <= 60)%nat ->
     exists n, rest = seg ++ repeat tp22_dt_pad n /\ seg' = tp22_dt_header s k 0 ++ rest /\ (length seg = 60%nat -> n = 0%nat)).
Proof.
  unfold dt_frame. rewrite app_length.
  change (Z.to_nat (tp22_TP + 4)) with (length (tp22_dt_header s k 0) + 60)%nat. rewrite firstn_app_2.
  (* the header as a variable: left as it is, its bit expressions get compared, which is slow *)
  change (length (tp22_dt_header s k 0)) with 4%nat. generalize (tp22_dt_header s k 0). intros hdr.
  destruct (Z.of_nat (4 + length seg) >=? tp22_TP + 4) eqn:E.
  - intros H. injection H as <- <-. exists (firstn 60 seg). split; [reflexivity|].
    intros Hl. exists 0%nat. rewrite firstn_all2 by exact Hl. cbn [repeat]. rewrite app_nil_r. repeat split.
  - destruct (fd_len (4 + length seg)) as [nl|]; [|discriminate].
    intros H. injection H as <- <-. rewrite <- app_assoc. eexists. split; [reflexivity|].
    intros _. eexists. split; [reflexivity|]. split; [reflexivity|]. unfold tp22_TP in E. lia.
Qed.

Lemma dt_frame_defined src dst s k seg : (length seg <= 60)%nat -> dt_frame src dst s k seg <> None.
Proof.
  intros Hl. unfold dt_frame. rewrite app_length. change (length (tp22_dt_header s k 0)) with 4%nat.
  destruct (Z.of_nat (4 + length seg) >=? tp22_TP + 4); [discriminate|].
  destruct (fd_len_legal (4 + length seg) ltac:(lia)) as (v & -> & _). discriminate.
Qed.

(* what the closed loops use: a segment that fits always makes a frame, a full one goes out as it is, a short one (only
   the last can be short) padded to a legal FD length *)
Lemma dt_frame_some src dst s k seg : (length seg <= 60)%nat ->
  exists fr seg' pad, dt_frame src dst s k seg = Some (fr, seg') /\ f_id fr = tp22_dt_id src dst /\
                      f_data fr = tp22_dt_header s k 0 ++ seg ++ pad /\ (length seg = 60%nat -> pad = []).
Proof.
  intros Hl. destruct (dt_frame src dst s k seg) as [[fr seg']|] eqn:E; [|destruct (dt_frame_defined _ _ _ _ _ Hl E)].
  destruct (dt_frame_inv _ _ _ _ _ _ _ E) as (rest & -> & Hfit). destruct (Hfit Hl) as (n & -> & _ & Hn).
  eexists _, seg', (repeat tp22_dt_pad n). repeat split. intros H60. rewrite (Hn H60). reflexivity.
Qed.

(* ---------------------------------------------------------------- one data frame at the responder *)
Lemma dt22_cases prio sa dest data now m :
  process_tp_dt22 prio sa dest data now m = Done m 0 \/
  exists b, (4 < length data)%nat /\ tp22_dt_segment_num data <> 0 /\
            tget (f_rcv m) (tp22_hash (tp22_dt_session_num data) sa dest) = Some b /\ q_next b = tp22_dt_segment_num data.
Proof.
  unfold process_tp_dt22.
  destruct (Nat.leb_spec (length data) 4); [left; reflexivity|].
  destruct (Z.eqb_spec (tp22_dt_segment_num data) 0); [left; reflexivity|].
  destruct (tget (f_rcv m) _) as [b|]; [|left; reflexivity].
  destruct (Z.eqb_spec (q_next b) (tp22_dt_segment_num data)); [|left; reflexivity].
  right. exists b. repeat split; assumption.
Qed.

(* the branches: the payload completes the message; or the session is a broadcast and the payload is appended; or it is
   the last of its window and the next CTS goes out; or it is appended inside the window.
   (A peer-to-peer session without border or window size cannot arise from an RTS; the model raises there as the Python
   code would.)  Below the announced size the model stores the session first and, except at a window border, again:
   hence the [tset_tset_same]. *)
Section DtStep.
  Variables (prio sa dest now s k : Z) (data : list Z) (m : node22) (b : rbuf22).
  Hypothesis Hlen : (4 < length data)%nat.
  Hypothesis Hs : tp22_dt_session_num data = s.
  Hypothesis Hk : tp22_dt_segment_num data = k.
  Hypothesis Hk0 : k <> 0.
  Hypothesis Hget : tget (f_rcv m) (tp22_hash s sa dest) = Some b.
  Hypothesis Hnext : q_next b = k.
  Let d := q_data b ++ skipn 4 data.
  Let put (b' : rbuf22) : node22 := set_frcv m (tset (f_rcv m) (tp22_hash s sa dest) b').

  Lemma dt22_step : flat22 (process_tp_dt22 prio sa dest data now m) =
    if q_size b <=? len d
    then (wake22 (put (upd_q b (firstn (Z.to_nat (q_size b)) d) (k + 1) (q_border b)
                              (if dest =? addr_GLOBAL then q_deadline b else now + tp22_T1))), [], RDone 0)
    else if dest =? addr_GLOBAL then (put (upd_q b d (k + 1) (q_border b) (now + tp22_T1)), [], RDone 0)
    else match q_border b, q_maxrec b with
         | Some bd, Some mr =>
             if bd <=? k
             then (wake22 (put (upd_q b d (k + 1) (Some (Z.min (bd + mr) (q_nseg b))) (now + tp22_T2))),
                   [OTx (tp22_cts dest sa s (Z.min mr (q_nseg b - bd)) (bd + 1) (q_pgn b))], RDone 0)
             else (put (upd_q b d (k + 1) (Some bd) (now + tp22_T1)), [], RDone 0)
         | Some bd, None =>
             if bd <=? k then (put (upd_q b d (k + 1) (Some bd) (q_deadline b)), [], RRaise E_Key)
             else (put (upd_q b d (k + 1) (Some bd) (now + tp22_T1)), [], RDone 0)
         | None, _ => (put (upd_q b d (k + 1) None (q_deadline b)), [], RRaise E_Key)
         end.
  Proof using Hlen Hs Hk Hk0 Hget Hnext.
    unfold process_tp_dt22.
    rewrite (proj2 (Nat.leb_gt _ _) Hlen), Hs, Hk, (proj2 (Z.eqb_neq _ _) Hk0), Hget, Hnext, Z.eqb_refl.
    cbn [negb]. fold d. rewrite Z.geb_leb. destruct (dest =? addr_GLOBAL); cbn [negb]; (destruct (q_size b <=? len d); [reflexivity|]).
    { cbn [flat22 f_rcv set_frcv upd_q q_border]. rewrite tset_tset_same. reflexivity. }
    destruct (q_border b) as [bd|] eqn:Hbd; [|reflexivity]. rewrite Z.geb_leb. destruct (bd <=? k).
    - destruct (q_maxrec b) as [mr|] eqn:Hmr; [|reflexivity].
      cbn [flat22 f_rcv set_frcv]. rewrite tget_tset_same. cbn [upd_q q_border q_maxrec q_data q_next q_nseg]. rewrite Hmr.
      cbn [flat22 f_rcv set_frcv]. rewrite tset_tset_same. reflexivity.
    - cbn [flat22 f_rcv set_frcv upd_q q_border]. rewrite tset_tset_same. destruct (q_maxrec b); reflexivity.
  Qed.
End DtStep.

Lemma dt22_accepted prio sa dest data now m b :
  (4 < length data)%nat -> tp22_dt_segment_num data <> 0 ->
  tget (f_rcv m) (tp22_hash (tp22_dt_session_num data) sa dest) = Some b -> q_next b = tp22_dt_segment_num data ->
  exists bd dl m' os r,
    flat22 (process_tp_dt22 prio sa dest data now m) = (m', os, r) /\
    f_rcv m' = tset (f_rcv m) (tp22_hash (tp22_dt_session_num data) sa dest)
                    (upd_q b (firstn (Z.to_nat (q_size b)) (q_data b ++ skipn 4 data)) (q_next b + 1) bd dl) /\
    f_snd m' = f_snd m /\
    (os = [] \/ exists border mr, q_border b = Some border /\ q_maxrec b = Some mr /\
       os = [OTx (tp22_cts dest sa (tp22_dt_session_num data) (Z.min mr (q_nseg b - border)) (border + 1) (q_pgn b))]).
Proof.
  intros Hlen Hne G Hnext. rewrite (dt22_step prio sa dest now _ _ data m b Hlen eq_refl eq_refl Hne G Hnext), <- Hnext.
  set (d := q_data b ++ skipn 4 data).
  destruct (Z.leb_spec (q_size b) (len d)) as [_|Hlt].
  { eexists _, _, _, _, _. split; [reflexivity|]. cbn [f_rcv f_snd wake22 with_base set_frcv]. auto. }
  rewrite (firstn_all2 (n := Z.to_nat (q_size b)) d) by (unfold len in Hlt; lia).
  destruct (dest =? addr_GLOBAL); [eexists _, _, _, _, _; split; [reflexivity|]; cbn [f_rcv f_snd set_frcv]; auto|].
  destruct (q_border b) as [bd|]; [|eexists _, _, _, _, _; split; [reflexivity|]; cbn [f_rcv f_snd set_frcv]; auto].
  destruct (q_maxrec b) as [mr|], (bd <=? q_next b); eexists _, _, _, _, _; (split; [reflexivity|]);
    cbn [f_rcv f_snd wake22 with_base set_frcv]; eauto 8.
Qed.

(* ---------------------------------------------------------------- one connection-management frame *)
(* only a frame of at least 12 bytes is dispatched on its control byte *)
Definition cm_frame (ctl : Z) (data : list Z) : Prop := (12 <= length data)%nat /\ tp22_cm_control_byte data = ctl.

(* a CTS that grants something, for an open session: the window is the grant, cut to the message, the own maximum and
   what is left to send; the burst is due now, or when the pacing of the previous burst allows *)
Lemma cts22_flat prio sa dest data now m b :
  cm_frame tp22_ctl_CTS data -> tget (f_snd m) (tp22_hash (tp22_cm_session_num data) dest sa) = Some b -> byte_at data 7 <> 0 ->
  flat22 (process_tp_cm22 prio sa dest data now m) =
  let e := tp22_cm_segment_num data - 1 in
  let g := Z.min (Z.min (Z.min (byte_at data 7) (t_nseg b)) (n_maxp (base m))) (t_nseg b - e) in
  (wake22 (set_fsnd m (tset (f_snd m) (tp22_hash (tp22_cm_session_num data) dest sa)
                            (with_twait (upd_t b tp22_st_SENDING_RTS_CTS (Z.max now (t_nb b)) e) (Some (e + g - 1))))), [], RDone 0).
Proof.
  intros [H1 H2] G H7. unfold process_tp_cm22.
  rewrite (proj2 (Nat.ltb_ge _ _) H1), H2, G, (proj2 (Z.eqb_neq _ _) H7), !gtb_min. reflexivity.
Qed.

(* the acknowledgement, for an open session: the subscribers of the group hear of it; the session becomes due, so that
   the next job pass releases it *)
Lemma eom_ack22_flat prio sa dest data now m b :
  cm_frame tp22_ctl_EOM_ACK data -> tget (f_snd m) (tp22_hash (tp22_cm_session_num data) dest sa) = Some b ->
  flat22 (process_tp_cm22 prio sa dest data now m) =
  (wake22 (set_fsnd m (tset (f_snd m) (tp22_hash (tp22_cm_session_num data) dest sa) (upd_t b tp22_st_EOM_ACK_RECEIVED now (t_next b)))),
   deliveries (base m) prio (tp22_cm_pgn data) sa dest data, RDone 0).
Proof.
  intros [H1 H2] G. unfold process_tp_cm22. rewrite (proj2 (Nat.ltb_ge _ _) H1), H2, (tmem_get _ _ _ G).
  change (tp22_ctl_EOM_ACK =? tp22_ctl_RTS) with false. change (tp22_ctl_EOM_ACK =? tp22_ctl_CTS) with false.
  change (tp22_ctl_EOM_ACK =? tp22_ctl_EOM_STATUS) with false. change (tp22_ctl_EOM_ACK =? tp22_ctl_EOM_ACK) with true. cbv iota. cbn [negb].
  rewrite flat22_notify_subscribers, G. cbn [flat22]. rewrite app_nil_r. reflexivity.
Qed.

(* an announcement: whatever was being received under its key is dropped; the new session waits T1 for the first segment *)
Lemma bam22_flat prio sa dest data now m :
  cm_frame tp22_ctl_BAM data ->
  flat22 (process_tp_cm22 prio sa dest data now m) =
  let h := tp22_hash (tp22_cm_session_num data) sa dest in
  (wake22 (set_frcv m (tset (if tmem (f_rcv m) h then tdel (f_rcv m) h else f_rcv m) h
     {| q_pgn := tp22_cm_pgn data; q_session := tp22_cm_session_num data; q_size := tp22_cm_message_size data;
        q_nseg := tp22_cm_segment_num data; q_next := 1; q_border := None; q_maxrec := None; q_data := [];
        q_deadline := now + tp22_T1; q_src := sa; q_dst := dest |})), [], RDone 0).
Proof.
  intros [H1 H2]. unfold process_tp_cm22. rewrite (proj2 (Nat.ltb_ge _ _) H1), H2. destruct (tmem (f_rcv m) _); reflexivity.
Qed.

(* ---------------------------------------------------------------- the job pass over the originator sessions *)
(* the exit every finished or timed-out session takes: out of the table, its number back to its pool *)
Definition release22 (key : Z) (b : sbuf22) (m : node22) (cont : node22 -> act node22) : act node22 :=
  if tmem (f_snd m) key then put_session (set_fsnd m (tdel (f_snd m) key)) b cont else Raise m E_Key.

Lemma release22_ind (Q : act node22 -> Prop) key b m cont :
  (forall s e, Q (Raise s e)) ->
  (forall m3, f_snd m3 = tdel (f_snd m) key -> f_rcv m3 = f_rcv m -> f_mpg m3 = f_mpg m -> base m3 = base m ->
              f_bam_iv m3 = f_bam_iv m -> Q (cont m3)) ->
  Q (release22 key b m cont).
Proof.
  intros HR HC. unfold release22, put_session, put_bam, put_rts.
  destruct (tmem (f_snd m) key); [|apply HR].
  destruct (t_dst b =? addr_GLOBAL); [destruct (pool_put (f_bam _) _)|destruct (pool_put (f_rts _) _)];
    try apply HR; apply HC; reflexivity.
Qed.

(* what the pass does with a session whose deadline has passed depends on its state only *)
Inductive due22 := DAbort | DBurst | DRelease | DBam | DStatus.
Definition snd22_class (st : Z) : due22 :=
  if st =? tp22_st_WAITING_CTS then DAbort
  else if st =? tp22_st_SENDING_RTS_CTS then DBurst
  else if (st =? tp22_st_WAITING_EOM_ACK) || (st =? tp22_st_EOM_ACK_RECEIVED) || (st =? tp22_st_TRANSMISSION_FINISHED) then DRelease
  else if st =? tp22_st_SENDING_BAM then DBam
  else if st =? tp22_st_SENDING_EOM_STATUS then DStatus
  else DRelease.

Lemma snd22_class_burst st : snd22_class st = DBurst -> st = tp22_st_SENDING_RTS_CTS.
Proof.
  unfold snd22_class. destruct (st =? tp22_st_WAITING_CTS); [discriminate|].
  destruct (Z.eqb_spec st tp22_st_SENDING_RTS_CTS) as [E|_]; [intros _; exact E|].
  destruct (_ || _); [discriminate|]. destruct (st =? tp22_st_SENDING_BAM); [discriminate|].
  destruct (st =? tp22_st_SENDING_EOM_STATUS); discriminate.
Qed.

Lemma snd_pass22_keep key ks now nw m k b :
  tget (f_snd m) key = Some b -> t_deadline b = 0 \/ now < t_deadline b ->
  snd_pass22 (key :: ks) now nw m k = snd_pass22 ks now (if t_deadline b =? 0 then nw else minw nw (t_deadline b)) m k.
Proof.
  intros G H. cbn [snd_pass22]. rewrite G. destruct (t_deadline b =? 0) eqn:E0; [reflexivity|].
  rewrite (proj2 (Z.gtb_lt _ _)) by lia. reflexivity.
Qed.

Lemma snd_pass22_due key ks now nw m k b :
  tget (f_snd m) key = Some b -> t_deadline b <> 0 -> t_deadline b <= now ->
  snd_pass22 (key :: ks) now nw m k =
  match snd22_class (t_state b) with
  | DAbort => Emit m (OTx (tp22_abort (t_src b) (t_dst b) (t_session b) tp22_reason_TIMEOUT (t_pgn b)))
                   (fun m' => release22 key b m' (fun m3 => snd_pass22 ks now nw m3 k))
  | DBurst =>
      fd_burst (Z.to_nat (t_nseg b - t_next b) + 2) key now m (fun m1 =>
        match tget (f_snd m1) key with
        | None => Raise m1 E_Alias
        | Some b1 =>
            let b2 := if (t_state b1 =? tp22_st_SENDING_RTS_CTS) && (t_next b1 >=? t_nseg b1)
                      then upd_t b1 tp22_st_WAITING_CTS (now + tp22_T3) (t_next b1) else b1 in
            snd_pass22 ks now (minw nw (t_deadline b2)) (set_fsnd m1 (tset (f_snd m1) key b2)) k
        end)
  | DRelease => release22 key b m (fun m3 => snd_pass22 ks now nw m3 k)
  | DBam =>
      match py_nth (t_data b) (t_next b) with
      | None => Raise m E_Index
      | Some seg =>
          match dt_frame (t_src b) (t_dst b) (t_session b) (t_next b + 1) seg with
          | None => Raise m E_Index
          | Some (fr, seg') =>
              Emit (set_fsnd m (tset (f_snd m) key (with_tdata b (py_set (t_data b) (t_next b) seg')))) (OTx fr) (fun m1 =>
                match tget (f_snd m1) key with
                | None => Raise m1 E_Alias
                | Some b1 =>
                    let b2 := upd_t b1 (if t_next b1 + 1 <? t_nseg b1 then t_state b1 else tp22_st_SENDING_EOM_STATUS)
                                    (now + f_bam_iv m1) (t_next b1 + 1) in
                    snd_pass22 ks now (minw nw (t_deadline b2)) (set_fsnd m1 (tset (f_snd m1) key b2)) k
                end)
          end
      end
  | DStatus => Emit m (OTx (tp22_eom_status (t_src b) (t_dst b) (t_session b) (t_size b) (t_nseg b) (t_pgn b)))
                    (fun m' => release22 key b m' (fun m3 => snd_pass22 ks now nw m3 k))
  end.
Proof.
  intros G H0 Hle. cbn [snd_pass22]. rewrite G, (proj2 (Z.eqb_neq _ _) H0), Z.gtb_ltb, (proj2 (Z.ltb_ge _ _) Hle).
  unfold snd22_class.
  destruct (t_state b =? tp22_st_WAITING_CTS); [reflexivity|].
  destruct (t_state b =? tp22_st_SENDING_RTS_CTS); [reflexivity|].
  destruct ((t_state b =? tp22_st_WAITING_EOM_ACK) || (t_state b =? tp22_st_EOM_ACK_RECEIVED) || (t_state b =? tp22_st_TRANSMISSION_FINISHED)); [reflexivity|].
  destruct (t_state b =? tp22_st_SENDING_BAM); [reflexivity|].
  destruct (t_state b =? tp22_st_SENDING_EOM_STATUS); reflexivity.
Qed.

(* ---------------------------------------------------------------- one turn of the burst loop *)
(* the session as stored before the frame goes out, and whether the loop stops after it: after the last segment of
   the message (T5 for the acknowledgement), after the last segment of the window (T3 for the next CTS), after every
   segment when paced; None when no window end is recorded *)
Definition fd_next (civ : option Z) (now : Z) (b : sbuf22) : option (sbuf22 * bool) :=
  let bn := match civ with Some iv => with_tnb b (now + iv) | None => b end in
  let b1 := upd_t bn (t_state b) (t_deadline b) (t_next b + 1) in
  if t_next b + 1 =? t_nseg b then Some (upd_t b1 tp22_st_WAITING_EOM_ACK (now + tp22_T5) (t_next b + 1), true)
  else match t_waitcts b with
       | None => None
       | Some w =>
           if t_next b =? w then Some (upd_t b1 tp22_st_WAITING_CTS (now + tp22_T3) (t_next b + 1), true)
           else match civ with
                | Some iv => Some (upd_t b1 (t_state b) (now + iv) (t_next b + 1), true)
                | None => Some (b1, false)
                end
       end.

Lemma fd_burst_S f key now m k b :
  tget (f_snd m) key = Some b ->
  fd_burst (S f) key now m k =
  if t_next b <? t_nseg b then
    match fd_next (n_cmdt_iv (base m)) now b with
    | None => Raise (set_fsnd m (tset (f_snd m) key
                      (upd_t (match n_cmdt_iv (base m) with Some iv => with_tnb b (now + iv) | None => b end)
                             (t_state b) (t_deadline b) (t_next b + 1)))) E_Key
    | Some (b2, brk) =>
        match py_nth (t_data b) (t_next b) with
        | None => Raise (set_fsnd m (tset (f_snd m) key b2)) E_Index
        | Some seg =>
            match dt_frame (t_src b) (t_dst b) (t_session b) (t_next b + 1) seg with
            | None => Raise (set_fsnd m (tset (f_snd m) key b2)) E_Index
            | Some (fr, seg') =>
                Emit (set_fsnd m (tset (f_snd m) key (with_tdata b2 (py_set (t_data b2) (t_next b) seg')))) (OTx fr) (fun m1 =>
                  if t_next b + 1 =? t_nseg b then
                    Emit m1 (OTx (tp22_eom_status (t_src b) (t_dst b) (t_session b) (t_size b) (t_nseg b) (t_pgn b))) k
                  else if brk then k m1 else fd_burst f key now m1 k)
            end
        end
    end
  else k m.
Proof. intros G. cbn [fd_burst]. rewrite G. reflexivity. Qed.

Lemma fd_next_fields civ now b b2 brk :
  fd_next civ now b = Some (b2, brk) ->
  t_next b2 = t_next b + 1 /\
  (t_src b2 = t_src b /\ t_dst b2 = t_dst b /\ t_session b2 = t_session b /\ t_size b2 = t_size b /\ t_nseg b2 = t_nseg b /\
   t_pgn b2 = t_pgn b /\ t_waitcts b2 = t_waitcts b /\ t_data b2 = t_data b) /\
  (if brk then t_deadline b2 = now + tp22_T5 \/ t_deadline b2 = now + tp22_T3 \/ civ = Some (t_deadline b2 - now)
   else civ = None /\ t_state b2 = t_state b /\ t_deadline b2 = t_deadline b /\ t_waitcts b <> Some (t_next b) /\
        t_next b + 1 <> t_nseg b).
Proof.
  unfold fd_next. intros H.
  assert (Hid : forall st dl, let b' := upd_t (match civ with Some iv => with_tnb b (now + iv) | None => b end) st dl (t_next b + 1) in
            t_next b' = t_next b + 1 /\
            (t_src b' = t_src b /\ t_dst b' = t_dst b /\ t_session b' = t_session b /\ t_size b' = t_size b /\ t_nseg b' = t_nseg b /\
             t_pgn b' = t_pgn b /\ t_waitcts b' = t_waitcts b /\ t_data b' = t_data b) /\ t_state b' = st /\ t_deadline b' = dl).
  { intros st dl. destruct civ; repeat split. }
  destruct (Z.eqb_spec (t_next b + 1) (t_nseg b)) as [|Hnl].
  { injection H as <- <-. destruct (Hid tp22_st_WAITING_EOM_ACK (now + tp22_T5)) as (A & B & _ & D). auto. }
  destruct (t_waitcts b) as [w|] eqn:Ew; [|discriminate].
  destruct (Z.eqb_spec (t_next b) w) as [|Hw].
  { injection H as <- <-. destruct (Hid tp22_st_WAITING_CTS (now + tp22_T3)) as (A & B & _ & D). auto. }
  destruct civ as [iv|]; injection H as <- <-.
  - destruct (Hid (t_state b) (now + iv)) as (A & B & _ & D). split; [exact A|]. split; [exact B|].
    right. right. cbn [upd_t t_deadline]. f_equal. lia.
  - destruct (Hid (t_state b) (t_deadline b)) as (A & B & C & D). repeat split; try assumption. congruence.
Qed.

Lemma fd_burst_row fuel key now m k b w seg fr seg' :
  tget (f_snd m) key = Some b -> t_next b < t_nseg b -> n_cmdt_iv (base m) = None -> t_waitcts b = Some w ->
  py_nth (t_data b) (t_next b) = Some seg -> dt_frame (t_src b) (t_dst b) (t_session b) (t_next b + 1) seg = Some (fr, seg') ->
  let put st dl := set_fsnd m (tset (f_snd m) key (with_tdata (upd_t b st dl (t_next b + 1)) (py_set (t_data b) (t_next b) seg'))) in
  flat22 (fd_burst (S fuel) key now m k) =
  if t_next b + 1 =? t_nseg b then
    let '(m', os, r) := flat22 (k (put tp22_st_WAITING_EOM_ACK (now + tp22_T5))) in
    (m', OTx fr :: OTx (tp22_eom_status (t_src b) (t_dst b) (t_session b) (t_size b) (t_nseg b) (t_pgn b)) :: os, r)
  else if t_next b =? w then
    let '(m', os, r) := flat22 (k (put tp22_st_WAITING_CTS (now + tp22_T3))) in (m', OTx fr :: os, r)
  else
    let '(m', os, r) := flat22 (fd_burst fuel key now (put (t_state b) (t_deadline b)) k) in (m', OTx fr :: os, r).
Proof.
  intros Hget Hlt Hiv Hw Hseg Hfr put. rewrite (fd_burst_S _ _ _ _ _ _ Hget), (proj2 (Z.ltb_lt _ _) Hlt), Hiv.
  unfold fd_next. rewrite Hw.
  (* both sides name the same buffer, once as the model builds it and once through [put]: normalise, then compare *)
  unfold put. destruct (t_next b + 1 =? t_nseg b); [|destruct (t_next b =? w)]; rewrite Hseg, Hfr;
    cbn [flat22 upd_t with_tdata t_pgn t_prio t_session t_size t_nseg t_data t_state t_deadline t_src t_dst t_next t_waitcts t_nb];
    [destruct (flat22 (k _)) as [[m' os] r]|destruct (flat22 (k _)) as [[m' os] r]|]; reflexivity.
Qed.

(* ---------------------------------------------------------------- the application's send_pgn *)
Lemma pgn_mk_small dp pf ps : 0 <= dp < 2 -> 0 <= pf < 256 -> 0 <= ps < 256 -> pgn_mk dp pf ps = (dp, pf, ps).
Proof. intros Hdp Hpf Hps. unfold pgn_mk. rewrite !land_255, land_1, !Z.mod_small by assumption. reflexivity. Qed.

(* a payload of more than 60 bytes opens a transport session under the first free number of the pool of its kind (none free:
   nothing is sent): a broadcast announces itself and paces its first data frame, a connection sends its RTS and waits T3 *)
Lemma send_pgn22_long m now dp pf ps prio sa data tl ff :
  0 <= dp < 2 -> 0 <= pf < 256 -> 0 <= ps < 256 -> tp22_TP < len data ->
  send_pgn22 m now dp pf ps prio sa data tl ff =
  let dl := len data in
  let nseg := dl / tp22_TP + (if dl mod tp22_TP =? 0 then 0 else 1) in
  if (ps =? addr_GLOBAL) || pgn_is_pdu2_of 0 pf ps then
    match pool_get (f_bam m) 0 with
    | None => Done m 0
    | Some (session, pool') =>
        let pv := pgn_value dp pf (if pgn_is_pdu1 pf then 0 else ps) in
        Emit (set_fbam m pool') (OTx (tp22_bam prio sa session pv dl nseg)) (fun m1 =>
          Done (wake22 (set_fsnd m1 (tset (f_snd m1) (tp22_hash session sa addr_GLOBAL)
            (mk_sbuf22 pv prio session dl nseg (segments data) tp22_st_SENDING_BAM (now + f_bam_iv m1) sa addr_GLOBAL None)))) 1)
    end
  else
    match pool_get (f_rts m) 0 with
    | None => Done m 0
    | Some (session, pool') =>
        let pv := pgn_value dp pf 0 in
        let m0 := set_frts m pool' in
        Emit (set_fsnd m0 (tset (f_snd m0) (tp22_hash session sa ps)
               (mk_sbuf22 pv prio session dl nseg (segments data) tp22_st_WAITING_CTS (now + tp22_T3) sa ps (Some 0))))
             (OTx (tp22_rts prio sa ps session pv dl nseg (Z.min (n_maxp (base m)) nseg))) (fun m2 => Done (wake22 m2) 1)
    end.
Proof.
  intros Hdp Hpf Hps Hl. unfold send_pgn22. rewrite pgn_mk_small, (proj2 (Z.leb_gt _ _) Hl) by assumption.
  destruct ((ps =? addr_GLOBAL) || pgn_is_pdu2_of 0 pf ps); [destruct (pool_get (f_bam m) 0) as [[s p']|]|destruct (pool_get (f_rts m) 0) as [[s p']|]];
    reflexivity.
Qed.
