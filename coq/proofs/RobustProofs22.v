(* RobustProofs22.v — C07 (J1939-22): the FD job pass over ANY session tables (receive sessions, multi-PG buffers,
   originator sessions in ANY state, with ANY counters — whatever frames created them) hands on a wake-up time
   strictly in the future, or raises: iterating the job loop cannot spin.  Mirrors RobustProofs.v (J1939-21). *)
From J1939 Require Import Base CodecGlue Model21 Model22.
From J1939.gen Require Import Codec Tp21Gen CaGen Tp22Gen.
From J1939P Require Import CodecProofs Flat MpgProofs PoolProofs Steps22 TimerProofs RobustProofs.
Local Arguments Z.add : simpl never.
Local Arguments Z.sub : simpl never.
Local Arguments Z.mul : simpl never.

Definition good22 (a : act node22) : Prop := match fres22 a with RDone r => 0 < r | RRaise _ => True end.

(* predicates on FD resumptions that hold of a raise and are preserved by an emission *)
Definition post22 (P : node22 -> Z -> Prop) (a : act node22) : Prop :=
  match flat22 a with (m', _, RDone r) => P m' r | (_, _, RRaise _) => True end.
Lemma post22_emit P s o k : post22 P (k s) -> post22 P (Emit s o k).
Proof. unfold post22. cbn [flat22]. destruct (flat22 (k s)) as [[s' os] r]. auto. Qed.
Lemma post22_raise P s e : post22 P (Raise s e).
Proof. exact I. Qed.

Lemma good22_post a : good22 a <-> post22 (fun _ r => 0 < r) a.
Proof. unfold good22, post22, fres22. destruct (flat22 a) as [[s os] [r|e]]; reflexivity. Qed.

Definition cfg22 (m : node22) : Z * option Z := (f_bam_iv m, n_cmdt_iv (base m)).
Definition cfg22_ok (c : Z * option Z) : Prop := 0 < fst c /\ (forall iv, snd c = Some iv -> 0 < iv).

Lemma T_pos : 0 < tp22_T3 /\ 0 < tp22_T5.
Proof. split; reflexivity. Qed.

(* Model22's [minw] is [min_nw] of TimerProofs.v under another name *)
Lemma minw_le nw dl : minw nw dl <= nw /\ minw nw dl <= dl.
Proof. exact (min_nw_le nw dl). Qed.
Lemma minw_future now nw dl : now < nw -> now < dl -> now < minw nw dl.
Proof. exact (min_nw_future now nw dl). Qed.

(* what a pass over one table leaves alone: the other two tables and the configured intervals (the pass over the originator
   sessions also hands session numbers back to their pools) *)
Definition but_rcv (m : node22) := (f_snd m, f_mpg m, cfg22 m).
Definition but_mpg (m : node22) := (f_snd m, f_rcv m, cfg22 m).
Definition but_snd (m : node22) := (f_rcv m, f_mpg m, cfg22 m).

(* ---------------------------------------------------------------- one key of a pass, from ANY state
   As on the J1939-21 side (RobustProofs.v): the pass goes on with the rest of the keys from a node whose table differs at
   [key] only, as [key_step] says, and the wake-up time is still in the future if it was.  Progress (below) and no oversleeping
   (NoOversleep22.v) are inductions over the keys with these lemmas as the step. *)
Lemma rcv_pass22_step P key ks now nw m k :
  (forall m1 nw1, but_rcv m1 = but_rcv m -> key_step (before q_deadline) key (f_rcv m) nw (f_rcv m1) nw1 ->
     (now < nw -> now < nw1) -> post22 P (rcv_pass22 ks now nw1 m1 k)) ->
  post22 P (rcv_pass22 (key :: ks) now nw m k).
Proof.
  intros Hk. cbn [rcv_pass22].
  assert (Hskip : forall nw1, nw1 <= nw -> (now < nw -> now < nw1) ->
            (forall b, tget (f_rcv m) key = Some b -> before q_deadline nw1 b) -> post22 P (rcv_pass22 ks now nw1 m k)).
  { intros nw1 L Pg C. apply Hk; [reflexivity|apply key_step_keep; assumption|exact Pg]. }
  destruct (tget (f_rcv m) key) as [b|]; [|apply Hskip; [apply Z.le_refl|trivial|discriminate]].
  destruct (Z.eqb_spec (q_deadline b) 0) as [E0|N0].
  { apply Hskip; [apply Z.le_refl|trivial|]. intros b0 [= <-] N0. contradiction. }
  destruct (Z.gtb_spec (q_deadline b) now) as [Hlt|Hle].
  { apply Hskip; [apply minw_le|intros Hnw; apply minw_future; assumption|intros b0 [= <-] _; apply minw_le]. }
  (* timed out: released, with an abort to the peer unless it was a broadcast *)
  assert (Hdel : post22 P (rcv_pass22 ks now nw (set_frcv m (tdel (f_rcv m) key)) k))
    by (apply Hk; [reflexivity|apply key_step_del|trivial]).
  destruct (negb (q_dst b =? addr_GLOBAL)); [apply post22_emit|]; exact Hdel.
Qed.

(* a multi-PG buffer always has a deadline: when it has passed the buffer is sent and released *)
Lemma mpg_pass_step P key ks now nw m k :
  (forall m1 nw1, but_mpg m1 = but_mpg m -> key_step (fun nw b => nw <= m_deadline b) key (f_mpg m) nw (f_mpg m1) nw1 ->
     (now < nw -> now < nw1) -> post22 P (mpg_pass ks now nw1 m1 k)) ->
  post22 P (mpg_pass (key :: ks) now nw m k).
Proof.
  intros Hk. cbn [mpg_pass].
  destruct (tget (f_mpg m) key) as [b|] eqn:G; [|apply post22_raise].
  destruct (Z.gtb_spec (m_deadline b) now) as [Hlt|Hle].
  { apply Hk; [reflexivity|apply key_step_keep; [apply minw_le|]|intros Hnw; apply minw_future; assumption].
    rewrite G. intros b0 [= <-]. apply minw_le. }
  destruct (tp22_unhash_mpg key) as [[[ff x] sa] dst].
  destruct (send_multi_pg ff (m_cpgs b) sa dst); [|apply post22_raise].
  apply post22_emit. rewrite (tmem_get _ _ _ G). apply Hk; [reflexivity|apply key_step_del|trivial].
Qed.

(* the burst loop returns with the table changed at [key] only; if it was entered in SENDING_RTS_CTS, the session then
   either waits (for the acknowledgement, the next CTS or the pacing interval) with a deadline after now, or has nothing left *)
Lemma fd_burst_step P key now : forall fuel m k,
  (forall m1, but_snd m1 = but_snd m ->
     (forall key', key <> key' -> tget (f_snd m1) key' = tget (f_snd m) key') ->
     (tnodup (f_snd m) -> tnodup (f_snd m1)) ->
     (cfg22_ok (cfg22 m) -> forall b, tget (f_snd m) key = Some b -> t_state b = tp22_st_SENDING_RTS_CTS ->
      exists b1, tget (f_snd m1) key = Some b1 /\
                 (now < t_deadline b1 \/ (t_state b1 = tp22_st_SENDING_RTS_CTS /\ t_nseg b1 <= t_next b1))) ->
     post22 P (k m1)) ->
  post22 P (fd_burst fuel key now m k).
Proof.
  induction fuel as [|f IH]; intros m k Hk; [apply post22_raise|].
  destruct (tget (f_snd m) key) as [b|] eqn:G; [|cbn [fd_burst]; rewrite G; apply post22_raise].
  rewrite (fd_burst_S _ _ _ _ _ _ G).
  destruct (Z.ltb_spec (t_next b) (t_nseg b)) as [Hlt|Hge].
  2:{ apply Hk; [reflexivity|reflexivity|trivial|].
      intros _ b0 [= <-] Hst. exists b. split; [exact G|right; split; [exact Hst|exact Hge]]. }
  destruct (fd_next _ now b) as [[b2 brk]|] eqn:En; [|apply post22_raise].
  destruct (fd_next_fields _ _ _ _ _ En) as (_ & _ & Hbrk).
  destruct (py_nth (t_data b) (t_next b)) as [seg|]; [|apply post22_raise].
  destruct (dt_frame _ _ _ _ seg) as [[fr seg']|]; [|apply post22_raise].
  apply post22_emit. destruct brk.
  - (* the loop stops: the stored session waits with a deadline after now *)
    assert (Hput : post22 P (k (set_fsnd m (tset (f_snd m) key (with_tdata b2 (py_set (t_data b2) (t_next b) seg')))))).
    { apply Hk; [reflexivity|intros key'; apply tget_tset_other|apply tnodup_tset|].
      intros [_ Hc] _ _ _. eexists. split; [apply tget_tset_same|]. left. cbn [with_tdata t_deadline].
      pose proof T_pos as [HT3 HT5]. destruct Hbrk as [->|[->|Hiv]]; [lia|lia|]. specialize (Hc _ Hiv). lia. }
    destruct (t_next b + 1 =? t_nseg b); [apply post22_emit|]; exact Hput.
  - destruct Hbrk as (_ & Est & _ & _ & Hnl). rewrite (proj2 (Z.eqb_neq _ _) Hnl).
    apply IH. intros m2 E2 F2 N2 Pg. apply Hk.
    + rewrite E2. reflexivity.
    + intros key' Hne. rewrite (F2 key' Hne). apply tget_tset_other, Hne.
    + intros Ht. apply N2, tnodup_tset, Ht.
    + intros Hok b0 [= <-] Hst. apply (Pg Hok _ (tget_tset_same _ _ _)). cbn [with_tdata t_state]. rewrite Est. exact Hst.
Qed.

Lemma snd_pass22_step P key ks now nw m k :
  (forall m1 nw1, but_snd m1 = but_snd m -> key_step (before t_deadline) key (f_snd m) nw (f_snd m1) nw1 ->
     (cfg22_ok (cfg22 m) -> now < nw -> now < nw1) -> post22 P (snd_pass22 ks now nw1 m1 k)) ->
  post22 P (snd_pass22 (key :: ks) now nw m k).
Proof.
  intros Hk.
  destruct (tget (f_snd m) key) as [b|] eqn:G; [|cbn [snd_pass22]; rewrite G; apply post22_raise].
  assert (Hsame : forall nw1, nw1 <= nw -> (now < nw -> now < nw1) -> before t_deadline nw1 b ->
            post22 P (snd_pass22 ks now nw1 m k)).
  { intros nw1 L Pg C. apply Hk; [reflexivity|apply key_step_keep; [exact L|]|intros _; exact Pg].
    rewrite G. intros b0 [= <-]. exact C. }
  (* the session is stored again, in a node that differs from m at [key] only, with the wake-up time cut to its deadline *)
  assert (Hset : forall m1 b2, but_snd m1 = but_snd m -> (tnodup (f_snd m) -> tnodup (f_snd m1)) ->
            (forall key', key <> key' -> tget (f_snd m1) key' = tget (f_snd m) key') -> (cfg22_ok (cfg22 m) -> now < t_deadline b2) ->
            post22 P (snd_pass22 ks now (minw nw (t_deadline b2)) (set_fsnd m1 (tset (f_snd m1) key b2)) k)).
  { intros m1 b2 E1 N1 F1 Hd. apply Hk; [exact E1| |intros Hok Hnw; apply minw_future; [exact Hnw|apply Hd, Hok]].
    apply (key_step_set _ _ _ _ (f_snd m1)); [apply minw_le|exact F1|exact N1|intros _; apply minw_le]. }
  assert (Hrel : post22 P (release22 key b m (fun m3 => snd_pass22 ks now nw m3 k))).
  { apply release22_ind; [intros; apply post22_raise|]. intros m3 E3 R3 M3 B3 I3.
    apply Hk; [unfold but_snd, cfg22; rewrite R3, M3, B3, I3; reflexivity|rewrite E3; apply key_step_del|trivial]. }
  destruct (Z.eq_dec (t_deadline b) 0) as [E0|N0]; [|destruct (Z_lt_le_dec now (t_deadline b)) as [Hlt|Hle]].
  - rewrite (snd_pass22_keep _ _ _ _ _ _ b G (or_introl E0)), E0. apply Hsame; [apply Z.le_refl|trivial|intros N0; contradiction].
  - rewrite (snd_pass22_keep _ _ _ _ _ _ b G (or_intror Hlt)), (proj2 (Z.eqb_neq _ _) N0).
    apply Hsame; [apply minw_le|intros Hnw; apply minw_future; assumption|intros _; apply minw_le].
  - rewrite (snd_pass22_due _ _ _ _ _ _ b G N0 Hle). destruct (snd22_class (t_state b)) eqn:Ecl.
    + apply post22_emit, Hrel.
    + (* the burst leaves b1 at [key]; it is parked with T3 if nothing is left to send, else stored again as it is *)
      apply fd_burst_step. intros m1 E1 F1 N1 Pg. specialize (fun Hok => Pg Hok b G (snd22_class_burst _ Ecl)).
      destruct (tget (f_snd m1) key) as [b1|]; [|apply post22_raise].
      apply Hset; [exact E1|exact N1|exact F1|]. intros Hok. destruct (Pg Hok) as (b2 & [= <-] & Hp). pose proof T_pos as [HT3 _].
      destruct (Z.eqb_spec (t_state b1) tp22_st_SENDING_RTS_CTS) as [Es|Ns], (Z.geb_spec (t_next b1) (t_nseg b1)) as [Hn|Hn];
        cbn [andb upd_t t_deadline]; lia.
    + apply Hrel.
    + destruct (py_nth (t_data b) (t_next b)) as [seg|]; [|apply post22_raise].
      destruct (dt_frame _ _ _ _ seg) as [[fr seg']|]; [|apply post22_raise].
      apply post22_emit. cbn [f_snd set_fsnd]. rewrite tget_tset_same.
      apply Hset; [reflexivity|apply tnodup_tset|intros key'; apply tget_tset_other|].
      intros [Hb _]. cbn [upd_t t_deadline f_bam_iv set_fsnd]. exact (Z.lt_add_pos_r _ _ Hb).
    + apply post22_emit, Hrel.
Qed.

(* ---------------------------------------------------------------- progress *)
Lemma rcv_pass22_progress P : forall keys now nw m k, now < nw ->
  (forall m' nw', now < nw' -> cfg22 m' = cfg22 m -> post22 P (k m' nw')) -> post22 P (rcv_pass22 keys now nw m k).
Proof.
  induction keys as [|key ks IH]; intros now nw m k Hnw Hk; [apply Hk; [exact Hnw|reflexivity]|].
  apply rcv_pass22_step. intros m1 nw1 E1 _ Pg. apply IH; [apply Pg, Hnw|].
  rewrite (f_equal snd E1 : cfg22 m1 = cfg22 m). exact Hk.
Qed.

Lemma mpg_pass_progress P : forall keys now nw m k, now < nw ->
  (forall m' nw', now < nw' -> cfg22 m' = cfg22 m -> post22 P (k m' nw')) -> post22 P (mpg_pass keys now nw m k).
Proof.
  induction keys as [|key ks IH]; intros now nw m k Hnw Hk; [apply Hk; [exact Hnw|reflexivity]|].
  apply mpg_pass_step. intros m1 nw1 E1 _ Pg. apply IH; [apply Pg, Hnw|].
  rewrite (f_equal snd E1 : cfg22 m1 = cfg22 m). exact Hk.
Qed.

Lemma snd_pass22_progress P : forall keys now nw m k, now < nw -> cfg22_ok (cfg22 m) ->
  (forall m' nw', now < nw' -> post22 P (k m' nw')) -> post22 P (snd_pass22 keys now nw m k).
Proof.
  induction keys as [|key ks IH]; intros now nw m k Hnw Hok Hk; [apply Hk, Hnw|].
  apply snd_pass22_step. intros m1 nw1 E1 _ Pg.
  apply IH; [apply Pg; assumption|rewrite (f_equal snd E1 : cfg22 m1 = cfg22 m); exact Hok|exact Hk].
Qed.

(* T07.3 (FD): one pass of the FD transport layer over ANY tables, at ANY instant, returns a wake-up time strictly
   later than that instant (or raises) *)
Theorem dll_job22_progress m now k :
  cfg22_ok (cfg22 m) ->
  (forall m' nw', now < nw' -> good22 (k m' nw')) ->
  good22 (dll_job22 m now k).
Proof.
  intros Hok Hk. apply good22_post. unfold dll_job22.
  apply rcv_pass22_progress; [lia|]. intros m1 nw1 H1 C1.
  apply mpg_pass_progress; [exact H1|]. intros m2 nw2 H2 C2.
  apply snd_pass22_progress; [exact H2|rewrite C2, C1; exact Hok|]. intros m3 nw3 H3. apply good22_post, Hk, H3.
Qed.

Corollary dll_job22_never_spins m now :
  cfg22_ok (cfg22 m) -> good22 (dll_job22 m now (fun m' nw' => Done m' (nw' - now))).
Proof.
  intros Hok. apply dll_job22_progress; [exact Hok|].
  intros m' nw' H. unfold good22, fres22. cbn. lia.
Qed.

Lemma init22_cfg_ok maxp civ biv :
  (forall v, civ = Some v -> 0 < v) -> (forall v, biv = Some v -> 0 < v) -> cfg22_ok (cfg22 (init_node22 maxp civ biv)).
Proof.
  intros H1 H2. unfold cfg22_ok, cfg22, init_node22, init_node. cbn. split; [|exact H1].
  destruct biv as [v|]; [apply H2; reflexivity|reflexivity].
Qed.

(* non-vacuity: a CTS pointing beyond the last segment leaves the session in SENDING_RTS_CTS with nothing to send and a
   deadline in the past; the job loop would spin on it, were it not parked in WAITING_CTS with a fresh T3 after the burst
   (async_job_thread, after the burst loop) *)
Example cts_beyond_end_progress :
  let b := {| t_pgn := 53248; t_prio := 6; t_session := 0; t_size := 100; t_nseg := 2; t_data := [repeat 1 60; repeat 1 40];
              t_state := tp22_st_SENDING_RTS_CTS; t_deadline := 5000; t_src := 16; t_dst := 32; t_next := 2;
              t_waitcts := Some 2; t_nb := 0 |} in
  let m := set_fsnd (init_node22 8 None None) [(tp22_hash 0 16 32, b)] in
  fres22 (dll_job22 m 6000 (fun m' nw' => Done m' (nw' - 6000))) = RDone 1250000.
Proof. vm_compute. reflexivity. Qed.
