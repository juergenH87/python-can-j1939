(* Net21Proofs.v — C01 end to end: in the closed loop of two model nodes (Net21.v) a connection-mode transfer of ANY
   payload p of 9 .. 1785 bytes (what the code accepts) with ANY window sizes on both sides delivers exactly p, once, to
   the subscribers on B; afterwards nothing is queued, no session is left on either side, and the nodes meet the premises
   of the theorem again (C10).  The run is followed through a handful of shapes of the network, one lemma per transition. *)
From J1939 Require Import Base CodecGlue Model21.
From J1939.gen Require Import Codec Tp21Gen CaGen.
From J1939P Require Import CodecProofs Flat Steps21 Tp21Seg Tp21Resp Tp21Orig Net21 NetCommon Net21Jobs.
Local Arguments Z.add : simpl never.
Local Arguments Z.sub : simpl never.
Local Arguments Z.mul : simpl never.

Section RespStep.
  Variables (sa dest pgn : Z) (p : list Z).
  Let h := tp21_hash sa dest.
  Let n_ := Z.of_nat (npk (length p)).
  Hypothesis Hdest : dest <> addr_GLOBAL.
  Notation inv := (inv pgn p).
  Notation expect := (expect 7 sa dest pgn p).

  Lemma dt_step g (k : nat) n b t : 1 <= g <= n_ -> (k < npk (length p))%nat ->
    tget (n_rcv n) h = Some b -> inv g k b -> r_src b = sa -> r_dst b = dest ->
    exists n', flat (process_tp_dt 7 sa dest (dt_payload p (Z.of_nat k)) t n) = (n', expect n g k 1, RDone 0) /\
               same_env n n' /\
               (if (S k =? npk (length p))%nat then n_rcv n' = tdel (n_rcv n) h
                else exists b', n_rcv n' = tset (n_rcv n) h b' /\ inv g (S k) b' /\ r_src b' = sa /\ r_dst b' = dest /\
                                t < r_deadline b').
  Proof. exact (responder_dt_step 7 sa dest pgn p Hdest g k n b t). Qed.
End RespStep.

(* ---------------------------------------------------------------- the step function, case by case, on a state written out *)
Lemma step_b {a b x f r c ea eb w wb b' os} : handle b c f = (b', os) ->
  step {| na := a; nb := b; qa := x; qb := f :: r; clk := c; eva := ea; evb := eb; wab := w; wba := wb |} =
  {| na := a; nb := b'; qa := x ++ txs os; qb := r; clk := c; eva := ea; evb := eb ++ evs os; wab := w; wba := wb ++ txs os |}.
Proof. intros H. unfold step. cbn [qb nb clk]. rewrite H. reflexivity. Qed.
Lemma step_a {a b f r c ea eb w wb a' os} : handle a c f = (a', os) ->
  step {| na := a; nb := b; qa := f :: r; qb := []; clk := c; eva := ea; evb := eb; wab := w; wba := wb |} =
  {| na := a'; nb := b; qa := r; qb := txs os; clk := c; eva := ea ++ evs os; evb := eb; wab := w ++ txs os; wba := wb |}.
Proof. intros H. unfold step. cbn [qb qa na clk]. rewrite H. reflexivity. Qed.
Lemma step_idle {a b c ea eb w wb a' oa ra b' ob rb} :
  flat (job_iter a c) = (a', oa, ra) -> flat (job_iter b c) = (b', ob, rb) ->
  step {| na := a; nb := b; qa := []; qb := []; clk := c; eva := ea; evb := eb; wab := w; wba := wb |} =
  {| na := a'; nb := b'; qa := txs ob; qb := txs oa;
     clk := c + (if match txs oa, txs ob with [], [] => true | _, _ => false end && (n_wakes a' =? n_wakes a) && (n_wakes b' =? n_wakes b)
                 then Z.max 0 (Z.min (sleep_of ra) (sleep_of rb)) else 0);
     eva := ea ++ evs oa; evb := eb ++ evs ob; wab := w ++ txs oa; wba := wb ++ txs ob |}.
Proof. intros Ha Hb. unfold step. cbn [qb qa na nb clk]. rewrite Ha, Hb. reflexivity. Qed.
(* the two ways an idle step goes here: A's job thread transmits and the clock stands still, or nobody does anything and the
   clock advances to the earlier wake-up *)
Lemma step_idle_tx {a b c ea eb w wb a' oa ra b' ob rb} :
  flat (job_iter a c) = (a', oa, ra) -> flat (job_iter b c) = (b', ob, rb) -> txs oa <> [] ->
  step {| na := a; nb := b; qa := []; qb := []; clk := c; eva := ea; evb := eb; wab := w; wba := wb |} =
  {| na := a'; nb := b'; qa := txs ob; qb := txs oa; clk := c;
     eva := ea ++ evs oa; evb := eb ++ evs ob; wab := w ++ txs oa; wba := wb ++ txs ob |}.
Proof. intros Ha Hb Hne. rewrite (step_idle Ha Hb). destruct (txs oa); [congruence|]. cbn [andb]. rewrite Z.add_0_r. reflexivity. Qed.
Lemma step_idle_quiet {a b c ea eb w wb a' da b' db} :
  flat (job_iter a c) = (a', [], RDone da) -> flat (job_iter b c) = (b', [], RDone db) ->
  n_wakes a' = n_wakes a -> n_wakes b' = n_wakes b ->
  step {| na := a; nb := b; qa := []; qb := []; clk := c; eva := ea; evb := eb; wab := w; wba := wb |} =
  {| na := a'; nb := b'; qa := []; qb := []; clk := c + Z.max 0 (Z.min da db); eva := ea; evb := eb; wab := w; wba := wb |}.
Proof.
  intros Ha Hb Wa Wb. rewrite (step_idle Ha Hb), Wa, Wb, !Z.eqb_refl. cbn [txs evs flat_map filter andb sleep_of].
  rewrite !app_nil_r. reflexivity.
Qed.

Lemma handle_cm n t f prio src dst : f_id f = mid_can_id_of prio (pgn_value_of 0 236 dst) src ->
  0 <= prio < 8 -> 0 <= dst < 256 -> 0 <= src < 256 -> accepts n dst = true ->
  handle n t f = let '(n', os, _) := flat (process_tp_cm prio src dst (f_data f) t n) in (n', os).
Proof. intros Hid Hp Hd Hs Ha. unfold handle. rewrite Hid, notify_tp_cm by assumption. reflexivity. Qed.
Lemma handle_dt n t src dst data : 0 <= dst < 256 -> 0 <= src < 256 -> accepts n dst = true ->
  handle n t (tp21_dt src dst data) = let '(n', os, _) := flat (process_tp_dt 7 src dst data t n) in (n', os).
Proof. intros Hd Hs Ha. unfold handle. cbn [tp21_dt f_id f_data]. rewrite notify_tp_dt by (assumption || lia). reflexivity. Qed.

Definition dtf (sa dest : Z) (p : list Z) (k : nat) : frame := tp21_dt sa dest (dt_payload p (Z.of_nat k)).
Definition dtfs (sa dest : Z) (p : list Z) (k m : nat) : list frame := map (dtf sa dest p) (seq k m).
Lemma txs_dts sa dest p : forall m k, txs (dts sa dest p (Z.of_nat k) m) = dtfs sa dest p k m.
Proof.
  induction m as [|m IH]; intros k; [reflexivity|]. cbn [dts txs flat_map app seq map dtfs]. unfold dtfs in IH.
  f_equal. replace (Z.of_nat k + 1) with (Z.of_nat (S k)) by lia. apply IH.
Qed.
Lemma evs_dts sa dest p : forall m x, evs (dts sa dest p x m) = [].
Proof. induction m as [|m IH]; intros x; [reflexivity|]. cbn [dts evs filter]. apply IH. Qed.
Lemma dtfs_snoc sa dest p k m : dtfs sa dest p k m ++ [dtf sa dest p (k + m)] = dtfs sa dest p k (S m).
Proof. unfold dtfs. rewrite seq_S, map_app. reflexivity. Qed.
Lemma dtfs_app sa dest p k m m' : dtfs sa dest p k m ++ dtfs sa dest p (k + m) m' = dtfs sa dest p k (m + m').
Proof. unfold dtfs. rewrite seq_app, map_app. reflexivity. Qed.
Lemma dtfs_upto sa dest p e m : (e <= m)%nat -> dtfs sa dest p 0 e ++ dtfs sa dest p e (m - e) = dtfs sa dest p 0 m.
Proof. intros H. rewrite (dtfs_app sa dest p 0 e (m - e) : _ ++ dtfs sa dest p e _ = _). f_equal. lia. Qed.
Lemma dtfs_cons sa dest p k m : (k < m)%nat -> dtfs sa dest p k (m - k) = dtf sa dest p k :: dtfs sa dest p (S k) (m - S k).
Proof. intros H. replace (m - k)%nat with (S (m - S k)) by lia. reflexivity. Qed.

Lemma npk_range p : 8 < len p <= 1785 -> 2 <= Z.of_nat (npk (length p)) <= 255.
Proof. unfold npk, len. lia. Qed.

(* the shapes a network goes through in a closed loop: the time, the queues, what B's application has got and what A has put
   on the wire are as given; A's callbacks and B's wire are not followed; the nodes are in their environments EA, EB and
   satisfy P *)
Definition shape (EA EB : node -> Prop) (c : Z) (x y : list frame) (eb : list out) (w : list frame) (P : node -> node -> Prop)
  (s : net) : Prop :=
  exists a b ea wb, s = {| na := a; nb := b; qa := x; qb := y; clk := c; eva := ea; evb := eb; wab := w; wba := wb |} /\
                    EA a /\ EB b /\ P a b.
Lemma shape_intro (EA EB : node -> Prop) c x y eb w (P : node -> node -> Prop) a b ea wb : EA a -> EB b -> P a b ->
  shape EA EB c x y eb w P {| na := a; nb := b; qa := x; qb := y; clk := c; eva := ea; evb := eb; wab := w; wba := wb |}.
Proof. intros Ea Eb HP. exists a, b, ea, wb. split; [reflexivity|]. split; [exact Ea|]. split; [exact Eb|exact HP]. Qed.

Section Loop.
  Variables (prio sa dest dp pf : Z) (p : list Z) (t0 : Z) (A0 B0 : node).
  Hypothesis Hprio : 0 <= prio < 8.
  Hypothesis Hsa : 0 <= sa < 255.
  Hypothesis Hdest : 0 <= dest < 255.
  Hypothesis Hpf : 0 <= pf < 240.
  Hypothesis Hdp : 0 <= dp < 2.
  Hypothesis Hsize : 8 < len p <= 1785.
  Hypothesis Ht0 : 0 < t0.
  Let pv := dp * 65536 + pf * 256.
  Let np := npk (length p).
  Let num := Z.of_nat np.
  Let h := tp21_hash sa dest.
  Let limit := Z.min (n_maxp A0) num.
  Let g0 := Z.min (n_maxp B0) (Z.min limit num).
  Hypothesis HA : n_snd A0 = [] /\ n_rcv A0 = [] /\ n_timers A0 = [] /\ n_cmdt_iv A0 = None /\
                  accepts A0 sa = true /\ 1 <= n_maxp A0.
  Hypothesis HB : n_snd B0 = [] /\ n_rcv B0 = [] /\ n_timers B0 = [] /\ accepts B0 dest = true /\ 1 <= n_maxp B0.

  Definition sbA (st dl nx : Z) (w : option Z) : sbuf :=
    {| s_pgn := pv; s_prio := prio; s_size := len p; s_num := num; s_data := p; s_state := st; s_deadline := dl;
       s_src := sa; s_dst := dest; s_next := nx; s_waitcts := w; s_nb := 0 |}.

  Definition envA (a : node) : Prop :=
    n_rcv a = [] /\ n_timers a = [] /\ n_cmdt_iv a = None /\ n_subs a = n_subs A0 /\ n_cas a = n_cas A0 /\ n_maxp a = n_maxp A0.
  Definition envB (b : node) : Prop :=
    n_snd b = [] /\ n_timers b = [] /\ n_subs b = n_subs B0 /\ n_cas b = n_cas B0 /\ n_maxp b = n_maxp B0.

  Lemma num_pos : 2 <= num <= 255.
  Proof. exact (npk_range p Hsize). Qed.
  Lemma g0_range : 1 <= g0 <= num.
  Proof. pose proof num_pos. destruct HA as (_ & _ & _ & _ & _ & Ha). destruct HB as (_ & _ & _ & _ & Hb). unfold g0, limit. lia. Qed.
  Lemma pv_range : 0 <= pv < 262144.
  Proof. unfold pv. lia. Qed.

  Lemma acceptsA a : envA a -> accepts a sa = true.
  Proof. intros (_ & _ & _ & Es & Ec & _). destruct HA as (_ & _ & _ & _ & Ha & _).
    unfold accepts, ecu_acceptable in *. rewrite Es, Ec. exact Ha. Qed.
  Lemma acceptsB b : envB b -> accepts b dest = true.
  Proof. intros (_ & _ & Es & Ec & _). destruct HB as (_ & _ & _ & Hb & _).
    unfold accepts, ecu_acceptable in *. rewrite Es, Ec. exact Hb. Qed.

  Notation cnt := (cnt g0 num).
  Notation wend := (wend g0 num).
  Notation at_border := (at_border g0).

  Definition rts : frame := tp21_rts sa dest prio pv (len p) num limit.
  Definition cts (e : nat) : frame := tp21_cts dest sa (cnt e) (Z.of_nat e + 1) pv.
  Definition eom : frame := tp21_eom_ack dest sa (len p) num pv.
  Definition delivered : list out := deliveries B0 7 pv sa dest p.
  Definition rb0 : rbuf :=
    {| r_pgn := pv; r_size := len p; r_num := num; r_next := g0; r_maxrec := Some g0; r_data := [];
       r_deadline := t0 + tp21_T2; r_src := sa; r_dst := dest |}.

  Lemma hB_rts b : envB b -> n_rcv b = [] ->
    handle b t0 rts = (wake (set_rcv b [(h, rb0)]), [OTx (tp21_cts dest sa g0 1 pv)]).
  Proof.
    intros Eb Hr. pose proof (acceptsB b Eb) as Hacc. destruct Eb as (_ & _ & _ & _ & Em).
    pose proof num_pos as Hn. pose proof pv_range as Hpv.
    destruct HA as (_ & _ & _ & _ & _ & Ha). destruct HB as (_ & _ & _ & _ & Hb).
    unfold handle, rts.
    rewrite (responder_rts prio sa dest pv limit p t0); try assumption; try lia.
    - rewrite Em, Hr. reflexivity.
    - rewrite Hr. reflexivity.
  Qed.

  Lemma hA_cts a st dl e w c : envA a -> n_snd a = [(h, sbA st dl e w)] -> 0 <= e -> 1 <= c -> e + c <= num ->
    handle a t0 (tp21_cts dest sa c (e + 1) pv) =
    (wake (set_snd a [(h, sbA ST_SENDING_IN_CTS (Z.max t0 0) e (Some (e + c - 1)))]), []).
  Proof.
    intros Ea Hs He Hc Hle. pose proof pv_range as Hpv.
    rewrite (handle_cm a t0 (tp21_cts dest sa c (e + 1) pv) 7 dest sa eq_refl) by (try apply (acceptsA a Ea); lia).
    rewrite (cts_opens_window sa dest a (sbA st dl e w) 7 pv c e t0); try reflexivity; try lia.
    - rewrite Hs, tset_single. reflexivity.
    - rewrite Hs. apply tget_single.
    - exact Hle.
  Qed.

  Lemma hA_eom a st dl nx w : envA a -> n_snd a = [(h, sbA st dl nx w)] ->
    exists os, handle a t0 eom = (wake (set_snd a [(h, sbA ST_FINISHED t0 nx w)]), os) /\ txs os = [].
  Proof.
    intros Ea Hs. rewrite (handle_cm a t0 eom 7 dest sa eq_refl) by (try apply (acceptsA a Ea); lia).
    rewrite cm_eom_ack by (apply le_n || reflexivity). cbv zeta. fold h. unfold tmem.
    rewrite Hs, tget_single. cbn [negb]. rewrite flat_notify, Hs, tget_single. cbn [flat pre]. rewrite tset_single.
    eexists. split; [rewrite app_nil_r; reflexivity|apply txs_deliveries].
  Qed.

  (* B's receive session with the first k packets in, and the same inside the window that starts at e *)
  Definition Bsess (b : node) (k : nat) : Prop :=
    exists rb, n_rcv b = [(h, rb)] /\ inv pv p g0 k rb /\ r_src rb = sa /\ r_dst rb = dest /\ t0 < r_deadline rb.
  Definition Bwin (b : node) (e k : nat) : Prop := at_border e /\ (e <= k < wend e)%nat /\ (e < np)%nat /\ Bsess b k.

  Lemma Bwin_facts b e k : Bwin b e k ->
    1 <= cnt e <= g0 /\ Z.of_nat (wend e) = Z.of_nat e + cnt e /\ Z.of_nat e + cnt e <= num /\ (k < wend e <= np)%nat.
  Proof. intros (_ & Hk & He & _). destruct (wend_facts g0 num (proj1 g0_range) e) as (Hc & Hw & _ & Hle); unfold num in *; lia. Qed.

  Definition answer (e k : nat) : list out :=
    if (S k =? np)%nat then OTx eom :: delivered else if (S k =? wend e)%nat then [OTx (cts (S k))] else [].

  Lemma hB_dt b e k : envB b -> Bwin b e k ->
    exists b', handle b t0 (dtf sa dest p k) = (b', answer e k) /\ envB b' /\
               if (S k =? np)%nat then n_rcv b' = [] else if (S k =? wend e)%nat then Bwin b' (S k) (S k) else Bwin b' e (S k).
  Proof.
    intros Eb HW. pose proof (Bwin_facts b e k HW) as (_ & _ & _ & Hkn). destruct HW as (Hb & Hk & He & rb & Hr & Hinv & Hsrc & Hdst & _).
    pose proof (acceptsB b Eb) as Hacc.
    destruct (dt_step sa dest pv p ltac:(unfold addr_GLOBAL; lia) g0 k b rb t0 g0_range ltac:(lia)) as (b' & Hf & He' & Hn); try assumption.
    { rewrite Hr. apply tget_single. }
    exists b'. unfold dtf. rewrite handle_dt, Hf by (assumption || lia). cbn [expect]. rewrite app_nil_r. fold np num in Hn |- *.
    destruct Eb as (E1 & E2 & E3 & E4 & E5). destruct He' as (S1 & S2 & S3 & S4 & S5 & _).
    assert (Eb' : envB b') by (unfold envB; rewrite S3, S4, S1, S2, S5; repeat split; assumption).
    rewrite (deliveries_env B0 b) by assumption. unfold answer.
    destruct (Nat.eqb_spec (S k) np) as [El|Nl].
    - rewrite (proj2 (Z.eqb_eq _ _)) by (unfold num; lia). split; [reflexivity|]. split; [exact Eb'|]. rewrite Hn, Hr. apply tdel_single.
    - rewrite (proj2 (Z.eqb_neq _ _)) by (unfold num; lia).
      destruct Hn as (rb' & Hr' & Hs').
      assert (HB' : Bsess b' (S k)) by (exists rb'; split; [rewrite Hr', Hr; apply tset_single|exact Hs']).
      pose proof (window_cases g0 num (proj1 g0_range) e k Hb Hk ltac:(unfold num; lia)) as Hw.
      destruct (Nat.eqb_spec (S k) (wend e)) as [Ew|Nw].
      + destruct Hw as (Hm & Hc & Hb'). rewrite Hm. clear Hm.
        destruct (wend_facts g0 num (proj1 g0_range) (S k) ltac:(unfold num; lia)) as (_ & _ & Hlt & _).
        split; [unfold cts, NetCommon.cnt; rewrite Nat2Z.inj_succ; replace (Z.of_nat k + 2) with (Z.succ (Z.of_nat k) + 1) by lia; reflexivity|].
        split; [exact Eb'|]. split; [exact Hb'|]. split; [lia|]. split; [lia|exact HB'].
      + rewrite (proj2 (Z.eqb_neq _ _) Hw). clear Hw.
        split; [reflexivity|]. split; [exact Eb'|]. split; [exact Hb|]. split; [lia|]. split; [exact He|exact HB'].
  Qed.

  (* the shapes of this loop.  After the time, which stays t0 until the last step (someone always has something to do), the
     arguments are: the frames queued for A, those queued for B, what B's application has got, what A has put on the wire.
       ShRts     A has sent the RTS and waits for a CTS; B has not seen it yet
       ShCts e   B holds the first e packets and has opened the window that starts at e; its CTS is on its way to A
       ShSend e  A has taken that CTS: the window is open and its session is due at once
       ShDt e k  A's job thread has put the whole window on the wire and waits for B's answer to it; B has taken the
                 packets up to k, the rest of the window is queued for it
       ShEom     B has taken the last packet, delivered p and closed; its EndOfMsgACK is on its way to A
       ShFin     A has taken it: the session is FINISHED and the next job iteration removes it *)
  Notation shape := (shape envA envB t0).
  Notation dtfs := (dtfs sa dest p).

  Definition ShRts : net -> Prop :=
    shape [] [rts] [] [rts] (fun a b => n_snd a = [(h, sbA ST_WAITING_CTS (t0 + tp21_T3) 0 (Some 0))] /\ n_rcv b = []).
  Definition ShCts (e : nat) : net -> Prop :=
    shape [cts e] [] [] (rts :: dtfs 0 e) (fun a b => (exists st dl w, n_snd a = [(h, sbA st dl (Z.of_nat e) w)]) /\ Bwin b e e).
  Definition ShSend (e : nat) : net -> Prop :=
    shape [] [] [] (rts :: dtfs 0 e) (fun a b =>
      n_snd a = [(h, sbA ST_SENDING_IN_CTS (Z.max t0 0) (Z.of_nat e) (Some (Z.of_nat e + cnt e - 1)))] /\ Bwin b e e).
  Definition ShDt (e k : nat) : net -> Prop :=
    shape [] (dtfs k (wend e - k)) [] (rts :: dtfs 0 (wend e)) (fun a b =>
      n_snd a = [(h, sbA ST_WAITING_CTS (t0 + tp21_T3) (Z.of_nat (wend e)) (Some (Z.of_nat e + cnt e - 1)))] /\ Bwin b e k).
  Definition ShEom : net -> Prop :=
    shape [eom] [] delivered (rts :: dtfs 0 np) (fun a b => (exists st dl nx w, n_snd a = [(h, sbA st dl nx w)]) /\ n_rcv b = []).
  Definition ShFin : net -> Prop :=
    shape [] [] delivered (rts :: dtfs 0 np) (fun a b => (exists nx w, n_snd a = [(h, sbA ST_FINISHED t0 nx w)]) /\ n_rcv b = []).
  (* the end.  The second and third conjunct are HA and HB said of the final nodes, so that the theorem applies to the
     next transfer (Net21Seq); the last line keeps the RTS and the deliveries of that transfer functions of A0 and B0. *)
  Definition restored (s : net) : Prop :=
    (qa s = [] /\ qb s = [] /\ t0 <= clk s /\ evb s = delivered /\ wab s = rts :: dtfs 0 np) /\
    (n_snd (na s) = [] /\ n_rcv (na s) = [] /\ n_timers (na s) = [] /\ n_cmdt_iv (na s) = None /\ accepts (na s) sa = true /\
     1 <= n_maxp (na s)) /\
    (n_snd (nb s) = [] /\ n_rcv (nb s) = [] /\ n_timers (nb s) = [] /\ accepts (nb s) dest = true /\ 1 <= n_maxp (nb s)) /\
    n_maxp (na s) = n_maxp A0 /\ n_subs (nb s) = n_subs B0 /\ n_cas (nb s) = n_cas B0.

  Lemma T_rts s : ShRts s -> ShCts 0 (step s).
  Proof.
    intros (a & b & ea & wb & -> & Ea & Eb & Hs & Hr). rewrite (step_b (hB_rts b Eb Hr)). cbn [txs flat_map evs filter app].
    pose proof num_pos as Hn. pose proof g0_range as Hg.
    assert (Hc : tp21_cts dest sa g0 1 pv = cts 0) by (unfold cts, NetCommon.cnt; replace (Z.min g0 _) with g0 by lia; reflexivity).
    rewrite Hc. apply shape_intro; [exact Ea|exact Eb|].
    split; [eexists _, _, _; exact Hs|]. split; [apply at_border_0|]. split; [unfold NetCommon.wend, NetCommon.cnt; lia|]. split; [unfold np, num in *; lia|].
    exists rb0. split; [reflexivity|]. split; [|split; [reflexivity|split; [reflexivity|cbn [rb0 r_deadline]; unfold tp21_T2; lia]]].
    unfold inv. cbn [rb0 r_data r_size r_num r_maxrec r_pgn r_next segs]. repeat split; try reflexivity.
    change (Z.of_nat 0) with 0. rewrite Z.div_0_l by lia. fold np. fold num. lia.
  Qed.

  Lemma T_cts e s : ShCts e s -> ShSend e (step s).
  Proof.
    intros (a & b & ea & wb & -> & Ea & Eb & (st & dl & w & Hs) & HW). destruct (Bwin_facts b e e HW) as (Hc & Hw & Hn & Hle).
    unfold cts. rewrite (step_a (hA_cts a st dl (Z.of_nat e) w (cnt e) Ea Hs ltac:(lia) ltac:(lia) Hn)).
    cbn [txs flat_map evs filter]. rewrite !app_nil_r.
    apply shape_intro; [exact Ea|exact Eb|]. split; [reflexivity|exact HW].
  Qed.

  Lemma T_send e s : ShSend e s -> ShDt e e (step s).
  Proof.
    intros (a & b & ea & wb & -> & Ea & Eb & Hs & HW). destruct (Bwin_facts b e e HW) as (Hc & Hw & Hn & Hle).
    pose proof Ea as (Ar & At & Ai & _). pose proof Eb as (Bs & Bt & _). pose proof HW as (_ & _ & _ & rb & Hr & _ & _ & _ & Hdl).
    set (g := Z.to_nat (cnt e - 1)).
    assert (Hg : Z.of_nat e + cnt e - 1 = Z.of_nat e + Z.of_nat g) by (unfold g; lia).
    destruct (job_snd_burst a sa dest _ g (Z.of_nat e) t0 Ar Hs At Ai eq_refl eq_refl) as (ra & Hja);
      [cbn [sbA s_waitcts]; rewrite Hg; reflexivity|cbn [sbA s_num s_deadline]; lia..|].
    cbn [sbA s_src s_dst s_data] in Hja.
    rewrite (step_idle_tx Hja (job_rcv_wait b h rb t0 Hr Bs Bt (conj (Z.lt_le_incl _ _ Ht0) Hdl))) by discriminate.
    rewrite txs_dts, evs_dts. cbn [txs flat_map evs filter]. rewrite !app_nil_r.
    replace (S g) with (wend e - e)%nat by lia. cbn [app]. rewrite dtfs_upto by lia.
    apply shape_intro; [exact Ea|exact Eb|]. split; [|exact HW].
    cbn [n_snd set_snd upd_sbuf sbA s_pgn s_prio s_size s_num s_data s_src s_dst s_waitcts s_nb].
    rewrite Hw, <- Hg. replace (Z.of_nat e + cnt e - 1 + 1) with (Z.of_nat e + cnt e) by lia. reflexivity.
  Qed.

  Lemma T_dt e k s : ShDt e k s ->
    (if (S k =? np)%nat then ShEom (step s) else if (S k =? wend e)%nat then ShCts (S k) (step s) else ShDt e (S k) (step s)).
  Proof.
    intros (a & b & ea & wb & -> & Ea & Eb & Hs & HW). destruct (Bwin_facts b e k HW) as (_ & _ & _ & Hk).
    destruct (hB_dt b e k Eb HW) as (b' & Hh & Eb' & Hn).
    rewrite dtfs_cons by lia. rewrite (step_b Hh). unfold answer. cbn [app].
    destruct (Nat.eqb_spec (S k) np) as [El|Nl]; [|destruct (Nat.eqb_spec (S k) (wend e)) as [Ew|Nw]].
    - replace (wend e) with (S k) by lia. rewrite El, Nat.sub_diag. cbn [txs flat_map evs filter app].
      unfold delivered. rewrite txs_deliveries, evs_deliveries.
      apply shape_intro; [exact Ea|exact Eb'|]. split; [eexists _, _, _, _; exact Hs|exact Hn].
    - rewrite <- Ew in Hs |- *. rewrite Nat.sub_diag. cbn [txs flat_map evs filter app].
      apply shape_intro; [exact Ea|exact Eb'|]. split; [eexists _, _, _; exact Hs|exact Hn].
    - cbn [txs flat_map evs filter app]. rewrite !app_nil_r.
      apply shape_intro; [exact Ea|exact Eb'|]. split; [exact Hs|exact Hn].
  Qed.

  Lemma T_eom s : ShEom s -> ShFin (step s).
  Proof.
    intros (a & b & ea & wb & -> & Ea & Eb & (st & dl & nx & w & Hs) & Hr).
    destruct (hA_eom a st dl nx w Ea Hs) as (os & Hh & Hos). rewrite (step_a Hh), Hos, app_nil_r.
    apply shape_intro; [exact Ea|exact Eb|]. split; [eexists _, _; reflexivity|exact Hr].
  Qed.

  Lemma T_fin s : ShFin s -> restored (step s).
  Proof.
    intros (a & b & ea & wb & -> & Ea & Eb & (nx & w & Hs) & Hr).
    pose proof (acceptsA a Ea) as Ha. pose proof (acceptsB b Eb) as Hb.
    destruct Ea as (Ar & At & Ai & _ & _ & Am). destruct Eb as (Bs & Bt & Bsub & Bcas & Bm).
    destruct HA as (_ & _ & _ & _ & _ & HmA). destruct HB as (_ & _ & _ & _ & HmB).
    rewrite (step_idle_quiet (job_snd_finished a h _ t0 Ar Hs At eq_refl ltac:(cbn [sbA s_deadline]; lia) (Z.le_refl t0))
                             (job_idle b t0 Hr Bs Bt) eq_refl eq_refl).
    unfold restored. cbn [na nb qa qb clk evb wab n_snd n_rcv n_timers n_cmdt_iv n_maxp set_snd]. rewrite Am, Bm.
    repeat split; assumption || lia.
  Qed.

  (* the loop over the DTs: ShDt comes back to ShDt, directly or through a CTS, with fewer packets still to come *)
  Lemma dt_reaches : forall ek s, ShDt (fst ek) (snd ek) s -> reaches steps restored s.
  Proof.
    apply (reaches_loop step steps (fun _ => eq_refl) (fun _ _ => eq_refl) (fun ek => (np - snd ek)%nat) (fun ek => ShDt (fst ek) (snd ek))).
    intros (e, k) s Hsh. cbn [fst snd] in *. pose proof (T_dt e k s Hsh) as Hn.
    assert (Hk : (k < np)%nat) by (destruct Hsh as (a & b & _ & _ & _ & _ & _ & _ & HW); destruct (Bwin_facts b e k HW) as (_ & _ & _ & Hk); lia).
    destruct (Nat.eqb_spec (S k) np) as [El|Nl]; [left; exists 3%nat; exact (T_fin _ (T_eom _ Hn))|right].
    destruct (S k =? wend e)%nat.
    - exists (S k, S k). split; [cbn [snd]; lia|]. exists 3%nat. exact (T_send _ _ (T_cts _ _ Hn)).
    - exists (e, S k). split; [cbn [snd]; lia|]. exists 1%nat. exact Hn.
  Qed.

  Lemma start_is_rts : ShRts (net_send (net0 A0 B0 t0) dp pf dest prio sa p).
  Proof.
    destruct HA as (As & Ar & At & Ai & Aa & Am). destruct HB as (Bs & Br & Bt & Ba & Bm).
    unfold net_send, net0. cbn [na nb qa qb clk eva evb wab wba].
    rewrite send_pgn_rts; try assumption; try lia.
    2:{ rewrite As. reflexivity. }
    replace (num_packets (len p)) with num by (unfold num, np, len; symmetry; apply num_packets_npk).
    cbn [txs flat_map evs filter app]. rewrite As.
    apply shape_intro; [repeat split; assumption|repeat split; assumption|]. split; [reflexivity|exact Br].
  Qed.

  (* T10.17 (C10_completed_transfer_restores_the_pair): the payload is delivered once, the wire carried RTS and
     DT_1 .. DT_n, and the final state meets the premises of the theorem itself (same configuration, same subscribers and
     CAs, nothing pending), so the pair can run its next transfer *)
  Theorem closed_loop_restores : reaches steps restored (net_send (net0 A0 B0 t0) dp pf dest prio sa p).
  Proof.
    do 3 apply (reaches_step step steps (fun _ _ => eq_refl)). apply (dt_reaches (0, 0)%nat).
    exact (T_send _ _ (T_cts _ _ (T_rts _ start_is_rts))).
  Qed.

  (* C01_closed_loop_delivers in props/C01.v: what the above says of the delivery, the wire and the sessions alone *)
  Theorem closed_loop_delivers : exists j, let s := steps j (net_send (net0 A0 B0 t0) dp pf dest prio sa p) in
    qa s = [] /\ qb s = [] /\ n_snd (na s) = [] /\ n_rcv (na s) = [] /\ n_snd (nb s) = [] /\ n_rcv (nb s) = [] /\
    evb s = delivered /\ wab s = rts :: dtfs 0 np.
  Proof.
    destruct closed_loop_restores as (j & (Q1 & Q2 & _ & Qe & Qw) & (A1 & A2 & _) & (B1 & B2 & _) & _).
    exists j. repeat split; assumption.
  Qed.
End Loop.

(* the premises are met, and the delivery is not an empty list: A with window 3, B with window 2 and a subscriber *)
Example closed_loop_instance :
  let A := subscribe (init_node 3 None None) 1 (FAddr 128) in
  let B := subscribe (init_node 2 None None) 7 (FAddr 144) in
  let p := map Z.of_nat (seq 1 20) in
  let s := steps 12 (net_send (net0 A B 1000) 0 239 144 6 128 p) in
  quiet s = true /\ evb s = [OCb 7 7 61184 128 p] /\ length (wab s) = 4%nat /\ length (wba s) = 3%nat.
Proof. vm_compute. repeat split. Qed.
