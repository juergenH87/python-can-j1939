(* ConserveProofs.v — C10/C02 (J1939-22): the originator capacity is conserved over ANY history.
   Inv m = every originator session holds the taken flag of its own number in the pool of its kind, numbers of one
           kind are pairwise different, keys are the hashes of (session, src, dst), the pools have 8 and 4 flags,
           and (no leak) every taken flag is held by a session.
   [guar P a]: every final state of the resumption [a] satisfies P, WHATEVER the receive path of the same stack did
   to the state between an emission and its continuation (re-entrant delivery with zero latency, pre-emption by the
   receive thread): the interference is any change that keeps [skel] — exactly what [inbound_guar_listener] shows
   every received frame to be.
   Theorems: every handler (send_pgn, notify of ANY frame, one job-thread iteration) started in an Inv state ends
   in an Inv state under that interference; hence Inv holds after any sequence of handlers from the initial state;
   an idle stack (no originator session) has every flag free. *)
From J1939 Require Import Base CodecGlue Model21 Model22.
From J1939.gen Require Import Codec Tp21Gen CaGen Tp22Gen.
From J1939P Require Import CodecProofs Flat MpgProofs PoolProofs Steps22.

Fixpoint guar (P : node22 -> Prop) (a : act node22) : Prop :=
  match a with
  | Done s _ => P s
  | Raise s _ => P s
  | Emit s o k => forall s', skel s' = skel s -> guar P (k s')
  end.

Lemma guar_flat P a : guar P a -> P (fnode22 a).
Proof.
  unfold fnode22. induction a as [s r|s e|s o k IH]; cbn [guar flat22]; intros H; [exact H|exact H|].
  specialize (IH s (H s eq_refl)). destruct (flat22 (k s)) as [[s1 o1] r1]. exact IH.
Qed.

Lemma guar_catch P (a : act node22) : guar P a -> guar P (catch a).
Proof.
  induction a as [s r|s e|s o k IH]; cbn [catch guar]; intros H; [exact H|exact H|].
  intros s' Hs'. apply IH. apply H. exact Hs'.
Qed.

(* ---------------------------------------------------------------- what no interference can break *)
(* P depends on skel only.  Then an emission has to be followed from the states satisfying P only, and every handler
   that leaves skel alone keeps P: the whole receive path, the job passes over receive sessions and multi-PG buffers,
   and the burst loop, which only replaces its session by one with the same number and addresses *)
Section Stable.
Variable P : node22 -> Prop.
Hypothesis HP : forall {m m'}, P m -> skel m' = skel m -> P m'.

Lemma guar_emit m o k : P m -> (forall m', P m' -> guar P (k m')) -> guar P (Emit m o k).
Proof. intros Hm Hk s' Hs'. apply Hk. exact (HP Hm Hs'). Qed.

Lemma guar_lift : forall (a : act node) m k,
  P m -> (forall m' r, P m' -> guar P (k m' r)) -> guar P (lift m a k).
Proof.
  induction a as [s r|s e|s o c IH]; intros m k Hm Hk; cbn [lift];
    assert (Hb := HP Hm (skel_with_base m s)).
  - exact (Hk _ r Hb).
  - exact Hb.
  - apply guar_emit; [exact Hb|]. intros m' Hm'. exact (IH _ m' k Hm' Hk).
Qed.

Lemma stable_upd m h b b' : P m -> tget (f_snd m) h = Some b ->
  t_session b' = t_session b -> t_dst b' = t_dst b -> t_src b' = t_src b ->
  P (set_fsnd m (tset (f_snd m) h b')).
Proof. intros Hm G H1 H2 H3. exact (HP Hm (skel_upd m h b b' G H1 H2 H3)). Qed.

Lemma stable_wake m : P m -> P (wake22 m).
Proof. intros Hm. exact (HP Hm (skel_wake22 m)). Qed.

Lemma guar_notify_subscribers prio pgn sa dest data m k :
  P m -> (forall m', P m' -> guar P (k m')) -> guar P (notify_subscribers22 prio pgn sa dest data m k).
Proof. intros Hm Hk. unfold notify_subscribers22. apply guar_lift; [exact Hm|]. intros m' _. apply Hk. Qed.

Lemma guar_tp_dt prio sa dest data now m : P m -> guar P (process_tp_dt22 prio sa dest data now m).
Proof.
  intros Hm. unfold process_tp_dt22.
  destruct (length data <=? 4)%nat; [exact Hm|].
  destruct (tp22_dt_segment_num data =? 0); [exact Hm|].
  destruct (tget (f_rcv m) _) as [b|]; [|exact Hm].
  destruct (negb (q_next b =? _)); [exact Hm|].
  destruct (len (q_data b ++ skipn 4 data) >=? q_size b); [apply (HP Hm); reflexivity|].
  destruct (negb (dest =? addr_GLOBAL)); [|apply (HP Hm); reflexivity].
  destruct (q_border b) as [bd|]; [|apply (HP Hm); reflexivity].
  destruct (tp22_dt_segment_num data >=? bd); [|apply (HP Hm); reflexivity].
  destruct (q_maxrec b) as [mr|]; [|apply (HP Hm); reflexivity].
  apply guar_emit; [apply (HP Hm); reflexivity|]. intros m' Hm'.
  destruct (tget (f_rcv m') _) as [b2|]; [|exact Hm'].
  destruct (q_border b2); [|exact Hm']. destruct (q_maxrec b2); [apply (HP Hm'); reflexivity|exact Hm'].
Qed.

Lemma guar_tp_cm prio sa dest data now m : P m -> guar P (process_tp_cm22 prio sa dest data now m).
Proof.
  intros Hm. unfold process_tp_cm22.
  assert (Hab : forall m1 o, P m1 -> guar P (Emit m1 o (fun m' => Done m' 0))).
  { intros m1 o H1. apply guar_emit; [exact H1|]. intros m' Hm'. exact Hm'. }
  destruct (length data <? 12)%nat; [exact Hm|].
  destruct (_ =? tp22_ctl_RTS).
  { destruct (tmem (f_rcv m) _); [apply Hab; exact Hm|].
    apply guar_emit; [apply (HP Hm); reflexivity|]. intros m' Hm'. apply (HP Hm'). reflexivity. }
  destruct (_ =? tp22_ctl_CTS).
  { destruct (tget (f_snd m) _) as [b|] eqn:G; [|apply Hab; exact Hm].
    destruct (byte_at data 7 =? 0); apply stable_wake, (stable_upd m _ b); try assumption; reflexivity. }
  destruct (_ =? tp22_ctl_EOM_STATUS).
  { destruct (tget (f_rcv m) _) as [b|]; [|exact Hm].
    assert (Hfin : forall h m', P m' ->
              guar P (if tmem (f_rcv m') h then Done (set_frcv m' (tdel (f_rcv m') h)) 0 else Raise m' E_Key)).
    { intros h m' H'. destruct (tmem (f_rcv m') h); [apply (HP H'); reflexivity|exact H']. }
    destruct ((q_size b =? _) && _ && _).
    - apply guar_notify_subscribers; [exact Hm|]. intros m' H'.
      destruct (negb (dest =? addr_GLOBAL)); [apply guar_emit; [exact H'|apply Hfin]|apply Hfin; exact H'].
    - destruct (negb (dest =? addr_GLOBAL)); [apply guar_emit; [exact Hm|apply Hfin]|apply Hfin; exact Hm]. }
  destruct (_ =? tp22_ctl_EOM_ACK).
  { destruct (negb (tmem (f_snd m) _)); [apply Hab; exact Hm|].
    apply guar_notify_subscribers; [exact Hm|]. intros m' H'.
    destruct (tget (f_snd m') _) as [b|] eqn:G; [|exact H'].
    apply stable_wake, (stable_upd m' _ b); try assumption; reflexivity. }
  destruct (_ =? tp22_ctl_BAM); [destruct (tmem (f_rcv m) _); apply (HP Hm); reflexivity|].
  destruct (_ =? tp22_ctl_ABORT); [|exact Hm].
  destruct (tget (f_snd m) _) as [b|] eqn:G; [|exact Hm].
  destruct (t_state b =? tp22_st_WAITING_CTS); [|exact Hm].
  apply (stable_upd m _ b); try assumption; reflexivity.
Qed.

Lemma guar_multi_pg : forall fuel prio sa dest data m, P m -> guar P (process_multi_pg fuel prio sa dest data m).
Proof.
  induction fuel as [|f IH]; intros prio sa dest data m Hm; cbn [process_multi_pg]; [exact Hm|].
  destruct (length data <=? 4)%nat; [exact Hm|].
  destruct (mpg_parse_header data) as [[[tos tf] cpgn] plen].
  destruct (tos =? 0); [exact Hm|].
  destruct ((tos =? 2) && (tf =? 0)); [|apply IH; exact Hm].
  apply guar_notify_subscribers; [exact Hm|]. intros m' H'. apply IH. exact H'.
Qed.

Lemma guar_claim_fanout : forall cnt i sa data m, P m -> guar P (claim_fanout22 i cnt sa data m).
Proof.
  induction cnt as [|c IH]; intros i sa data m Hm; cbn [claim_fanout22]; [exact Hm|].
  apply guar_lift; [exact Hm|]. intros m' _ H'. apply IH. exact H'.
Qed.

Theorem notify22_guar m now can_id data : P m -> guar P (notify22 m now can_id data).
Proof.
  intros Hm. unfold notify22.
  destruct (mid_parse can_id) as [[prio pgnf] sa]. destruct (pgn_from_mid pgnf) as [[dp pf] ps].
  destruct (negb (ps =? addr_GLOBAL) && _ && _ && _); [exact Hm|].
  destruct (_ =? pgn_FEFF_MULTI_PG); [apply guar_multi_pg; exact Hm|].
  destruct (_ =? pgn_ADDRESSCLAIM); [apply guar_claim_fanout; exact Hm|].
  destruct (_ =? pgn_REQUEST); [apply guar_lift; [exact Hm|intros m' r H; exact H]|].
  destruct (_ =? pgn_FD_TP_CM); [apply guar_tp_cm; exact Hm|].
  destruct (_ =? pgn_FD_TP_DT); [apply guar_tp_dt; exact Hm|].
  destruct ((_ =? pgn_TP_CM) || _); [exact Hm|].
  destruct (pgn_is_pdu2 pf); apply guar_notify_subscribers; try exact Hm; intros m' H; exact H.
Qed.

Theorem listener22_guar m now can_id ext remote err data : P m -> guar P (listener22 m now can_id ext remote err data).
Proof.
  intros Hm. unfold listener22. destruct (err || remote || negb ext); [exact Hm|].
  apply guar_catch, notify22_guar, Hm.
Qed.

Lemma rcv_pass22_guar : forall keys now nw m k,
  P m -> (forall m' nw', P m' -> guar P (k m' nw')) -> guar P (rcv_pass22 keys now nw m k).
Proof.
  induction keys as [|key ks IH]; intros now nw m k Hm Hk; cbn [rcv_pass22]; [apply Hk; exact Hm|].
  destruct (tget (f_rcv m) key) as [b|]; [|apply IH; assumption].
  destruct (q_deadline b =? 0); [apply IH; assumption|].
  destruct (q_deadline b >? now); [apply IH; assumption|].
  assert (Hdel : forall m' t, P m' -> guar P (rcv_pass22 ks now nw (set_frcv m' t) k)).
  { intros m' t H'. apply IH; [|exact Hk]. exact (HP H' (skel_set_frcv m' t)). }
  destruct (negb (q_dst b =? addr_GLOBAL)).
  - apply guar_emit; [exact Hm|]. intros m' H'. apply Hdel. exact H'.
  - apply Hdel. exact Hm.
Qed.

Lemma mpg_pass_guar : forall keys now nw m k,
  P m -> (forall m' nw', P m' -> guar P (k m' nw')) -> guar P (mpg_pass keys now nw m k).
Proof.
  induction keys as [|key ks IH]; intros now nw m k Hm Hk; cbn [mpg_pass]; [apply Hk; exact Hm|].
  destruct (tget (f_mpg m) key) as [b|]; [|exact Hm].
  destruct (m_deadline b >? now); [apply IH; assumption|].
  destruct (tp22_unhash_mpg key) as [[[ff x] sa] dst].
  destruct (send_multi_pg ff (m_cpgs b) sa dst); [|exact Hm].
  apply guar_emit; [exact Hm|]. intros s' H'.
  destruct (tmem (f_mpg s') key); [|exact H'].
  apply IH; [|exact Hk]. exact (HP H' (skel_set_fmpg s' _)).
Qed.

Lemma fd_burst_guar key now : forall fuel m k,
  P m -> (forall m1, P m1 -> guar P (k m1)) -> guar P (fd_burst fuel key now m k).
Proof.
  induction fuel as [|f IH]; intros m k Hm Hk; [exact Hm|].
  destruct (tget (f_snd m) key) as [b|] eqn:G; [|cbn [fd_burst]; rewrite G; exact Hm].
  rewrite (fd_burst_S f key now m k b G).
  destruct (t_next b <? t_nseg b); [|apply Hk; exact Hm].
  destruct (fd_next _ now b) as [[b2 brk]|] eqn:E.
  - destruct (fd_next_fields _ _ _ _ _ E) as (_ & (H3 & H2 & H1 & _) & _).
    assert (H2' := stable_upd m key b b2 Hm G H1 H2 H3).
    destruct (py_nth (t_data b) (t_next b)) as [seg|]; [|exact H2'].
    destruct (dt_frame _ _ _ _ seg) as [[fr seg']|]; [|exact H2'].
    apply guar_emit; [apply (stable_upd m key b _ Hm G); assumption|]. intros m1 H1'.
    destruct (t_next b + 1 =? t_nseg b); [apply guar_emit; [exact H1'|exact Hk]|].
    destruct brk; [apply Hk; exact H1'|apply IH; [exact H1'|exact Hk]].
  - apply (stable_upd m key b _ Hm G); destruct (n_cmdt_iv (base m)); reflexivity.
Qed.
End Stable.

Lemma skel_stable s0 m m' : skel m = s0 -> skel m' = skel m -> skel m' = s0.
Proof. intros H E. exact (eq_trans E H). Qed.

(* T10.2, interference-closed: a received frame — ANY identifier, ANY data, an error or remote frame — keeps skel even
   when further frames are handled re-entrantly between its emissions and their continuations *)
Theorem inbound_guar_listener m now can_id ext remote err data :
  guar (fun s => skel s = skel m) (listener22 m now can_id ext remote err data).
Proof. exact (listener22_guar _ (skel_stable (skel m)) m now can_id ext remote err data eq_refl). Qed.

(* T10.2: whatever arrives from the bus (any identifier, any data), the sessions this stack originated and
   its two pools are exactly as before: inbound traffic neither consumes nor releases outbound capacity *)
Theorem inbound_neutral m now can_id data : skel (fnode22 (notify22 m now can_id data)) = skel m.
Proof. exact (guar_flat _ _ (notify22_guar _ (skel_stable (skel m)) m now can_id data eq_refl)). Qed.

Theorem inbound_neutral_listener m now can_id ext remote err data :
  skel (fnode22 (listener22 m now can_id ext remote err data)) = skel m.
Proof. exact (guar_flat _ _ (inbound_guar_listener m now can_id ext remote err data)). Qed.

Corollary pool_inv_inbound m now can_id data : pool_inv m -> pool_inv (fnode22 (notify22 m now can_id data)).
Proof. intros I. exact (guar_flat _ _ (notify22_guar pool_inv pool_inv_skel m now can_id data I)). Qed.

(* ---------------------------------------------------------------- the conservation invariant *)
Definition no_leak (m : node22) : Prop :=
  (forall i, nth_error (f_rts m) i = Some false ->
     exists h b, tget (f_snd m) h = Some b /\ (t_dst b =? addr_GLOBAL) = false /\ t_session b = Z.of_nat i) /\
  (forall i, nth_error (f_bam m) i = Some false ->
     exists h b, tget (f_snd m) h = Some b /\ (t_dst b =? addr_GLOBAL) = true /\ t_session b = Z.of_nat i).

Definition Inv (m : node22) : Prop := pool_inv m /\ keys_ok m /\ no_leak m.

Lemma no_leak_kind m : no_leak m <->
  forall g i, nth_error (pool_of m g) i = Some false ->
    exists h b, tget (f_snd m) h = Some b /\ kind b = g /\ t_session b = Z.of_nat i.
Proof. split; [intros [L1 L2] [|]; assumption|intros L; split; [exact (L false)|exact (L true)]]. Qed.

Lemma no_leak_skel m m' : no_leak m -> skel m' = skel m -> no_leak m'.
Proof.
  intros L E. apply no_leak_kind. intros g i Hi. rewrite (skel_pool_of m m' g E) in Hi.
  destruct (proj1 (no_leak_kind m) L g i Hi) as (h & b & G & D & S).
  destruct (skel_snd_get m m' h b E G) as (b' & G' & Hs & Hd & _).
  exists h, b'. split; [exact G'|]. unfold kind. rewrite Hs, Hd. split; assumption.
Qed.

Theorem Inv_skel m m' : Inv m -> skel m' = skel m -> Inv m'.
Proof.
  intros (I & K & L) E.
  exact (conj (pool_inv_skel m m' I E) (conj (keys_ok_skel m m' K E) (no_leak_skel m m' L E))).
Qed.

Theorem Inv_init maxp civ biv : Inv (init_node22 maxp civ biv).
Proof.
  split; [apply pool_inv_init|]. split; [apply keys_ok_init|].
  unfold no_leak, init_node22. cbn [f_rts f_bam f_snd]. split; intros i Hi; apply nth_error_In, repeat_spec in Hi; discriminate.
Qed.

Theorem idle_has_full_capacity m : Inv m -> f_snd m = [] ->
  Forall (fun b => b = true) (f_rts m) /\ length (f_rts m) = tp22_pool_rts /\
  Forall (fun b => b = true) (f_bam m) /\ length (f_bam m) = tp22_pool_bam.
Proof.
  intros (_ & (_ & K2 & K3) & L) He.
  assert (F : forall g, Forall (fun b => b = true) (pool_of m g)).
  { intros g. apply Forall_forall. intros [|] Hb; [reflexivity|]. apply In_nth_error in Hb as [i Hi].
    destruct (proj1 (no_leak_kind m) L g i Hi) as (h & b & G & _). rewrite He in G. discriminate. }
  exact (conj (F false) (conj K2 (conj (F true) K3))).
Qed.

(* ---------------------------------------------------------------- allocation / release keep Inv *)
Lemma map_proj_tdel_congr (t t' : tbl sbuf22) h : map proj t = map proj t' -> map proj (tdel t h) = map proj (tdel t' h).
Proof.
  revert t'. induction t as [|[k v] r IH]; intros [|[k' v'] r'] E; try discriminate; [reflexivity|].
  cbn [map] in E. injection E as <- Es Ed Er Et.
  cbn [tdel]. destruct (k =? h); [exact Et|]. cbn [map]. f_equal; [|exact (IH r' Et)].
  unfold proj. cbn [fst snd]. rewrite Es, Ed, Er. reflexivity.
Qed.

(* send_pgn22 emits between taking the number and storing the session: m1 is the state its continuation runs in, anything
   with the skeleton of m after the number was taken *)
Theorem Inv_alloc m pool' b m1 :
  Inv m -> 0 <= t_src b < 256 -> 0 <= t_dst b < 256 ->
  pool_get (pool_of m (kind b)) 0 = Some (t_session b, pool') ->
  skel m1 = skel (set_pool m (kind b) pool') ->
  Inv (set_fsnd m1 (tset (f_snd m1) (tp22_hash (t_session b) (t_src b) (t_dst b)) b)).
Proof.
  intros (I & K & L) Hsa Hd Hget Hsk.
  destruct (allocation_preserves m _ pool' _ _ b I K Hsa Hd Hget eq_refl eq_refl eq_refl) as (I' & K' & Hfresh).
  refine (Inv_skel _ _ (conj I' (conj K' _)) _).
  2:{ unfold skel in *. cbn [f_snd f_rts f_bam set_fsnd]. injection Hsk as E1 -> ->.
    rewrite (map_proj_tset_congr _ _ _ b b E1 eq_refl). reflexivity. }
  clear I' K'. change (if t_dst b =? addr_GLOBAL then set_fbam m pool' else set_frts m pool') with (set_pool m (kind b) pool').
  destruct (pool_get_some _ _ _ _ Hget) as (Hs0 & _ & -> & _). rewrite Z.sub_0_r.
  (* a taken flag is the new one, held by b, or an old one, whose holder is still there *)
  apply no_leak_kind. intros g' i Hi. cbn [f_snd set_fsnd]. rewrite f_snd_set_pool.
  destruct (pool_flag_after_write _ _ _ _ _ _ _ Hi) as [(-> & -> & _)|[_ Hi']].
  - exists (tp22_hash (t_session b) (t_src b) (t_dst b)), b. rewrite tget_tset_same. split; [reflexivity|]. split; [reflexivity|lia].
  - destruct (proj1 (no_leak_kind m) L g' i Hi') as (h0 & b0 & G0 & D0).
    exists h0, b0. split; [|exact D0]. rewrite tget_tset_other; [exact G0|]. intros <-. rewrite Hfresh in G0. discriminate.
Qed.

Theorem Inv_release m h b :
  Inv m -> tget (f_snd m) h = Some b ->
  let m1 := set_fsnd m (tdel (f_snd m) h) in
  exists l, pool_put (pool_of m1 (kind b)) (t_session b) = Some l /\ Inv (set_pool m1 (kind b) l).
Proof.
  intros (I & (K1 & K2 & K3) & L) Hget m1.
  destruct (proj1 I h b Hget) as [Hs0 Hflag]. rewrite flag_of_eq in Hflag.
  exists (upd_nth (pool_of m (kind b)) (Z.to_nat (t_session b)) true). split.
  { (* the session holds a flag, so its number is an index of the pool *)
    assert (Z.to_nat (t_session b) < length (pool_of m (kind b)))%nat by (apply nth_error_Some; rewrite Hflag; discriminate).
    rewrite (pool_put_nonneg _ _ Hs0). unfold m1. rewrite pool_of_set_fsnd, (proj2 (Z.ltb_lt _ _)) by lia. reflexivity. }
  split; [exact (release_pool_inv m h b I Hget)|]. split.
  - split.
    + intros h' b' H'. rewrite f_snd_set_pool in H'. exact (K1 h' b' (proj2 (tget_tdel_some _ _ _ _ (proj2 (proj2 I)) H'))).
    + destruct (kind b); cbn [set_pool pool_of m1 f_rts f_bam set_fbam set_frts set_fsnd]; rewrite upd_nth_length; split; assumption.
  - (* a flag still taken was taken before and is not the returned one: its holder is not b, and is still there *)
    apply no_leak_kind. intros g' i Hi. rewrite f_snd_set_pool. cbn [m1 f_snd set_fsnd].
    destruct (pool_flag_after_write m1 _ _ _ _ _ _ Hi) as [(_ & _ & F)|[Hne Hi']]; [discriminate F|].
    destruct (proj1 (no_leak_kind m) L g' i Hi') as (h0 & b0 & G0 & D0 & S0).
    exists h0, b0. split; [|split; assumption]. rewrite tget_tdel_other; [exact G0|]. intros <-.
    rewrite Hget in G0. injection G0 as <-. apply (Hne (eq_sym D0)). rewrite S0. symmetry. apply Nat2Z.id.
Qed.

(* ---------------------------------------------------------------- handlers keep Inv under interference *)
Definition ginv := guar Inv.

Theorem notify22_inv m now can_id data : Inv m -> ginv (notify22 m now can_id data).
Proof. exact (notify22_guar Inv Inv_skel m now can_id data). Qed.

Theorem send_pgn22_inv m now dp pf ps prio sa data tl ff :
  Inv m -> 0 <= sa < 256 -> 0 <= ps < 256 -> ginv (send_pgn22 m now dp pf ps prio sa data tl ff).
Proof.
  intros HI Hsa Hps. unfold send_pgn22. destruct (pgn_mk dp pf ps) as [[pdp ppf] pps].
  destruct (len data <=? tp22_TP).
  - destruct (if pgn_is_pdu1 ppf then _ else _) as [cpgn0 dst].
    destruct ((ff =? ff_FBFF) && negb (dst =? addr_GLOBAL)); [exact HI|].
    destruct (mpg_cpg_fields _ _ _ _) as [[[cp ct] cf] cg].
    destruct (tl =? 0).
    + destruct (send_multi_pg _ _ _ _); [|exact HI]. apply (guar_emit Inv Inv_skel); [exact HI|]. intros m' HI'. exact HI'.
    + destruct (mpg_collect _ _ _ _ _ _ _ _ _); [|exact HI]. exact (Inv_skel m _ HI eq_refl).
  - destruct ((ps =? addr_GLOBAL) || pgn_is_pdu2_of 0 pf ps) eqn:G.
    + destruct (pool_get (f_bam m) 0) as [[session pool']|] eqn:Hget; [|exact HI].
      intros m1 Hm1. apply (stable_wake Inv Inv_skel).
      (* the session is read off the goal: [apply (Inv_alloc m pool' _ m1)], with it left as an evar, sends unification
         into a loop (kind ?b, t_session ?b against the fields of the record) *)
      match goal with |- Inv (set_fsnd _ (tset _ _ ?b)) => apply (Inv_alloc m pool' b m1) end; try assumption.
      unfold addr_GLOBAL. cbn [mk_sbuf22 t_dst]. lia.
    + apply orb_false_iff in G. destruct G as [G1 G2].
      destruct (pool_get (f_rts m) 0) as [[session pool']|] eqn:Hget; [|exact HI].
      intros m2 Hm2. apply (stable_wake Inv Inv_skel). refine (Inv_skel _ _ _ Hm2).
      match goal with |- Inv (set_fsnd _ (tset _ _ ?b)) => apply (Inv_alloc m pool' b) end; try assumption;
        unfold kind; cbn [mk_sbuf22 t_dst]; rewrite G1; [exact Hget|reflexivity].
Qed.

(* ---------------------------------------------------------------- the job pass *)
(* the releasing exit, taken at once or after an emission: the session still there has the same number and kind *)
Lemma release22_inv m m' key b cont :
  Inv m -> tget (f_snd m) key = Some b -> skel m' = skel m ->
  (forall m3, Inv m3 -> ginv (cont m3)) -> ginv (release22 key b m' cont).
Proof.
  intros HI G E Hc. destruct (skel_snd_get m m' key b E G) as (b' & G' & Hs & Hd & _).
  unfold release22. rewrite (tmem_get _ _ _ G'), put_session_eq.
  destruct (Inv_release m' key b' (Inv_skel m m' HI E) G') as (l & Hl & HI2). cbv zeta in Hl, HI2.
  replace (kind b') with (kind b) in * by (unfold kind; rewrite Hd; reflexivity).
  rewrite Hs in Hl. rewrite Hl. exact (Hc _ HI2).
Qed.

Lemma snd_pass22_inv : forall keys now nw m k,
  Inv m -> (forall m' nw', Inv m' -> ginv (k m' nw')) -> ginv (snd_pass22 keys now nw m k).
Proof.
  induction keys as [|key ks IH]; intros now nw m k HI Hk; [apply Hk; exact HI|].
  destruct (tget (f_snd m) key) as [b|] eqn:G; [|cbn [snd_pass22]; rewrite G; exact HI].
  destruct (Z.eq_dec (t_deadline b) 0) as [E0|N0];
    [rewrite (snd_pass22_keep _ _ _ _ _ _ _ G (or_introl E0)); apply IH; assumption|].
  destruct (Z_lt_le_dec now (t_deadline b)) as [L|L];
    [rewrite (snd_pass22_keep _ _ _ _ _ _ _ G (or_intror L)); apply IH; assumption|].
  rewrite (snd_pass22_due _ _ _ _ _ _ _ G N0 L).
  assert (Hrel : forall m', skel m' = skel m -> ginv (release22 key b m' (fun m3 => snd_pass22 ks now nw m3 k))).
  { intros m' Hm'. apply (release22_inv m m' key b _ HI G Hm'). intros m3 H3. apply IH; [exact H3|exact Hk]. }
  destruct (snd22_class (t_state b)).
  - (* no CTS in time: abort, then release *) exact Hrel.
  - (* a burst, then the session is stored once more *)
    apply (fd_burst_guar Inv Inv_skel); [exact HI|]. intros m1 HI1.
    destruct (tget (f_snd m1) key) as [b1|] eqn:G1; [|exact HI1].
    apply IH; [|exact Hk].
    destruct ((t_state b1 =? tp22_st_SENDING_RTS_CTS) && (t_next b1 >=? t_nseg b1));
      apply (stable_upd Inv Inv_skel m1 key b1 _ HI1 G1); reflexivity.
  - apply Hrel. reflexivity.
  - (* one BAM packet *)
    destruct (py_nth (t_data b) (t_next b)) as [seg|]; [|exact HI].
    destruct (dt_frame _ _ _ _ seg) as [[fr seg']|]; [|exact HI].
    apply (guar_emit Inv Inv_skel); [apply (stable_upd Inv Inv_skel m key b _ HI G); reflexivity|]. intros m1 HI1.
    destruct (tget (f_snd m1) key) as [b1|] eqn:G1; [|exact HI1].
    apply IH; [|exact Hk]. apply (stable_upd Inv Inv_skel m1 key b1 _ HI1 G1); reflexivity.
  - (* EOM status, then release *) exact Hrel.
Qed.

(* T10.1: one iteration of the job thread — receive timeouts, multi-PG deadlines, every branch of the originator
   pass (timeouts, bursts, BAM packets, EOM status, all exits that delete a session), then the timer pass *)
Theorem job_iter22_inv m now : Inv m -> ginv (job_iter22 m now).
Proof.
  intros HI. unfold job_iter22, dll_job22.
  apply (rcv_pass22_guar Inv Inv_skel); [exact HI|]. intros m1 nw1 H1.
  apply (mpg_pass_guar Inv Inv_skel); [exact H1|]. intros m2 nw2 H2.
  apply snd_pass22_inv; [exact H2|]. intros m3 nw3 H3.
  apply (guar_lift Inv Inv_skel); [exact H3|]. intros m4 r H4. exact H4.
Qed.

(* ---------------------------------------------------------------- any history *)
Inductive hev :=
| HSend (now dp pf ps prio sa : Z) (data : list Z) (time_limit ff : Z)
| HFrame (now can_id : Z) (ext remote err : bool) (data : list Z)
| HJob (now : Z).

Definition hev_ok (e : hev) : Prop :=
  match e with HSend _ _ _ ps _ sa _ _ _ => 0 <= sa < 256 /\ 0 <= ps < 256 | _ => True end.

Definition hact (m : node22) (e : hev) : act node22 :=
  match e with
  | HSend now dp pf ps prio sa data tl ff => send_pgn22 m now dp pf ps prio sa data tl ff
  | HFrame now can_id ext remote err data => listener22 m now can_id ext remote err data
  | HJob now => job_iter22 m now
  end.

Theorem hact_inv m e : Inv m -> hev_ok e -> ginv (hact m e).
Proof.
  intros HI He. destruct e; cbn [hact].
  - destruct He as [H1 H2]. apply send_pgn22_inv; assumption.
  - apply (listener22_guar Inv Inv_skel). exact HI.
  - apply job_iter22_inv. exact HI.
Qed.

Definition hstep (m : node22) (e : hev) : node22 := fnode22 (hact m e).

(* T10.1 (history form): after ANY sequence of submissions (accepted or refused), received frames (well-formed
   or not, including aborts, stray CTS/EOMA, foreign traffic) and job-thread iterations at ANY instants, the
   invariant holds: the capacity in use is exactly the set of sessions in flight, nothing leaks, nothing is shared *)
Theorem capacity_conserved_any_history maxp civ biv evs :
  Forall hev_ok evs -> Inv (fold_left hstep evs (init_node22 maxp civ biv)).
Proof.
  generalize (Inv_init maxp civ biv). generalize (init_node22 maxp civ biv).
  induction evs as [|e es IH]; intros m HI Hok; [exact HI|].
  apply Forall_cons_iff in Hok. apply IH; [|apply Hok]. exact (guar_flat _ _ (hact_inv m e HI (proj1 Hok))).
Qed.

Corollary idle_after_any_history maxp civ biv evs :
  Forall hev_ok evs -> let m := fold_left hstep evs (init_node22 maxp civ biv) in
  f_snd m = [] -> Forall (fun b => b = true) (f_rts m) /\ length (f_rts m) = tp22_pool_rts /\
                  Forall (fun b => b = true) (f_bam m) /\ length (f_bam m) = tp22_pool_bam.
Proof. intros Hok m He. apply idle_has_full_capacity; [apply capacity_conserved_any_history; exact Hok|exact He]. Qed.

(* non-vacuity: a concrete history (a long send to 0x20, a BAM, job passes that time both out)
   that takes flags and gives them back *)
Example history_example :
  let evs := [HSend 0 0 200 32 6 16 (repeat 7 100) 0 0; HSend 10 0 254 1 6 16 (repeat 9 70) 0 0;
              HJob 20000; HJob 1300000; HJob 2600000] in
  let m1 := fold_left hstep (firstn 2 evs) (init_node22 8 None None) in
  let m := fold_left hstep evs (init_node22 8 None None) in
  (nth_error (f_rts m1) 0 = Some false /\ nth_error (f_bam m1) 0 = Some false /\ length (f_snd m1) = 2%nat) /\
  (f_snd m = [] /\ f_rts m = repeat true 8 /\ f_bam m = repeat true 4).
Proof. vm_compute. repeat split. Qed.
