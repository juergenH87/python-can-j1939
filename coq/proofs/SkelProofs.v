(* SkelProofs.v — C08 (T08.1): fault-freedom of the job pass under interference, by reflection.
   Semantics: one iteration of a snapshot loop for a key that was present when the snapshot was taken.
   Before EVERY access the environment (the thread feeding received frames, or an application thread) may change
   the presence of the key arbitrarily if the rely says other methods delete from the table; otherwise it may only
   (re-)insert it.  A lookup or del of an absent key outside try/except KeyError faults (the job thread dies). *)
From J1939 Require Import Base SkelDefs.

Definition env_step (rely : bool) (p p' : bool) : Prop := if rely then True else (p' = p \/ p' = true).

Inductive outcome := Ok (p : bool) | Left_ | Fault.     (* Left_: the iteration was left by `continue` *)

Inductive exec (rely : bool) : sk -> bool -> outcome -> Prop :=
| ESkip p : exec rely SSkip p (Ok p)
| ELookupOk tr p p' : env_step rely p p' -> p' = true -> exec rely (SAcc KLookup tr) p (Ok p')
| ELookupCaught p p' : env_step rely p p' -> p' = false -> exec rely (SAcc KLookup true) p (Ok p')
| ELookupFault p p' : env_step rely p p' -> p' = false -> exec rely (SAcc KLookup false) p Fault
| EDelOk tr p p' : env_step rely p p' -> p' = true -> exec rely (SAcc KDel tr) p (Ok false)
| EDelCaught p p' : env_step rely p p' -> p' = false -> exec rely (SAcc KDel true) p (Ok false)
| EDelFault p p' : env_step rely p p' -> p' = false -> exec rely (SAcc KDel false) p Fault
| EGetSome tr p p' : env_step rely p p' -> p' = true -> exec rely (SAcc KGet tr) p (Ok p')
| EGetNone tr p p' : env_step rely p p' -> p' = false -> exec rely (SAcc KGet tr) p Left_
| EPop tr p p' : env_step rely p p' -> exec rely (SAcc KPop tr) p (Ok false)
| ESeqGo a b p p1 o : exec rely a p (Ok p1) -> exec rely b p1 o -> exec rely (SSeq2 a b) p o
| ESeqStop a b p o : exec rely a p o -> (o = Left_ \/ o = Fault) -> exec rely (SSeq2 a b) p o
| EAltL a b p o : exec rely a p o -> exec rely (SAlt a b) p o
| EAltR a b p o : exec rely b p o -> exec rely (SAlt a b) p o
| ELoopEnd body p : exec rely (SLoop body) p (Ok p)
| ELoopStep body p p1 o : exec rely body p (Ok p1) -> exec rely (SLoop body) p1 o -> exec rely (SLoop body) p o
| ELoopStop body p o : exec rely body p o -> (o = Left_ \/ o = Fault) -> exec rely (SLoop body) p o.

(* while this thread has not deleted the key and nobody else can, the key is present *)
Definition consistent (rely deleted p : bool) : Prop := rely = false -> deleted = false -> p = true.

Lemma env_keeps rely deleted p p' : env_step rely p p' -> consistent rely deleted p -> consistent rely deleted p'.
Proof.
  unfold env_step, consistent. destruct rely; intros H C R D; [discriminate|].
  destruct H as [E|E]; subst; [apply C; assumption|reflexivity].
Qed.
Lemma consistent_or rely d e p : consistent rely d p -> consistent rely (d || e) p.
Proof. intros C R D. apply orb_false_elim in D. apply C; [exact R|apply D]. Qed.

(* an unprotected lookup or del is only accepted where the key must be present *)
Lemma unprotected rely d p (x d' : bool) :
  (if negb rely && negb d then Some x else None) = Some d' -> consistent rely d p -> p = true.
Proof. destruct rely, d; try discriminate. intros _ C. apply C; reflexivity. Qed.

Lemma consistent_deleted rely p : consistent rely true p.
Proof. intros _ D. discriminate D. Qed.

(* what an accepted skeleton promises of an outcome: it is no fault, and if the iteration goes on the presence of the
   key agrees with the flag the checker returned *)
Definition kept (rely d' : bool) (o : outcome) : Prop :=
  match o with Ok p' => consistent rely d' p' | Left_ => True | Fault => False end.

Lemma kept_or rely d e o : kept rely d o -> kept rely (d || e) o.
Proof. destruct o; [apply consistent_or|exact id..]. Qed.
Lemma kept_stop rely d d' o : o = Left_ \/ o = Fault -> kept rely d o -> kept rely d' o.
Proof. intros [-> | ->] H; exact H. Qed.

(* the flag the checker returns: set before, or set by a del or pop somewhere in the skeleton *)
Fixpoint dels (s : sk) : bool :=
  match s with
  | SSkip | SAcc KLookup _ | SAcc KGet _ => false
  | SAcc KDel _ | SAcc KPop _ => true
  | SSeq2 a b | SAlt a b => dels a || dels b
  | SLoop body => dels body
  end.

Lemma safe_out rely : forall s d d', safe rely d s = Some d' -> d' = d || dels s.
Proof.
  induction s as [|k tr|a IHa b IHb|a IHa b IHb|body IH]; intros d d' H; cbn [safe dels] in *.
  - injection H as <-. destruct d; reflexivity.
  - destruct k; try destruct (tr || _); try discriminate; injection H as <-; destruct d; reflexivity.
  - destruct (safe rely d a) as [d1|] eqn:Ea; [|discriminate].
    rewrite (IHb _ _ H), (IHa _ _ Ea). symmetry. apply orb_assoc.
  - destruct (safe rely d a) as [da|] eqn:Ea; [|discriminate]. destruct (safe rely d b) as [db|] eqn:Eb; [|discriminate].
    injection H as <-. rewrite (IHa _ _ Ea), (IHb _ _ Eb). destruct d, (dels a), (dels b); reflexivity.
  - destruct (safe rely d body) as [d1|] eqn:E1; [|discriminate]. destruct (safe rely d1 body); [|discriminate].
    injection H as <-. exact (IH _ _ E1).
Qed.

(* the flag a loop returns is the one it starts every later round with *)
Lemma safe_loop rely body d d1 :
  safe rely d (SLoop body) = Some d1 -> safe rely d body = Some d1 /\ safe rely d1 (SLoop body) = Some d1.
Proof.
  cbn [safe]. intros H. destruct (safe rely d body) as [d1'|] eqn:E1; [|discriminate].
  destruct (safe rely d1' body) as [d2|] eqn:E2; [|discriminate]. injection H as <-.
  split; [reflexivity|].
  assert (d2 = d1') as ->.
  { rewrite (safe_out _ _ _ _ E2), (safe_out _ _ _ _ E1). destruct d, (dels body); reflexivity. }
  rewrite E2, E2. reflexivity.
Qed.

Theorem safe_sound rely s p o :
  exec rely s p o -> forall d d', safe rely d s = Some d' -> consistent rely d p -> kept rely d' o.
Proof.
  induction 1 as [p|tr p p' He Hp|p p' He Hp|p p' He Hp|tr p p' He Hp|p p' He Hp|p p' He Hp|tr p p' He Hp
                  |tr p p' He Hp|tr p p' He|a b p p1 o _ IHa _ IHb|a b p o _ IH Ho|a b p o _ IH|a b p o _ IH
                  |body p|body p p1 o _ IHb _ IHl|body p o _ IH Ho]; intros d d' Hs Hc.
  (* accesses: the environment moves first, and keeps what the flag promises *)
  2-10: pose proof (env_keeps _ _ _ _ He Hc) as Hk.
  2-10: cbn [safe orb] in Hs.
  - injection Hs as <-. exact Hc.
  - intros _ _. exact Hp.
  - injection Hs as <-. exact Hk.
  - rewrite (unprotected _ _ _ _ _ Hs Hk) in Hp. discriminate Hp.
  - rewrite (safe_out rely (SAcc KDel tr) d d' Hs), orb_true_r. apply consistent_deleted.
  - injection Hs as <-. apply consistent_deleted.
  - rewrite (unprotected _ _ _ _ _ Hs Hk) in Hp. discriminate Hp.
  - intros _ _. exact Hp.
  - exact I.
  - injection Hs as <-. apply consistent_deleted.
  - cbn [safe] in Hs. destruct (safe rely d a) as [d1|] eqn:Ea; [|discriminate].
    exact (IHb d1 d' Hs (IHa d d1 Ea Hc)).
  - cbn [safe] in Hs. destruct (safe rely d a) as [d1|] eqn:Ea; [|discriminate].
    exact (kept_stop _ _ _ _ Ho (IH d d1 Ea Hc)).
  - cbn [safe] in Hs. destruct (safe rely d a) as [da|] eqn:Ea; [|discriminate].
    destruct (safe rely d b) as [db|]; [|discriminate]. injection Hs as <-. apply kept_or, (IH d da Ea Hc).
  - cbn [safe] in Hs. destruct (safe rely d a) as [da|]; [|discriminate].
    destruct (safe rely d b) as [db|] eqn:Eb; [|discriminate]. injection Hs as <-.
    rewrite orb_comm. apply kept_or, (IH d db Eb Hc).
  - (* no round: the flag can only have grown *)
    rewrite (safe_out _ _ _ _ Hs). apply consistent_or, Hc.
  - destruct (safe_loop _ _ _ _ Hs) as [E1 El]. exact (IHl d' d' El (IHb d d' E1 Hc)).
  - destruct (safe_loop _ _ _ _ Hs) as [E1 _]. exact (IH d d' E1 Hc).
Qed.

(* T08.1: if the checker accepts a loop, then for a key present at the snapshot NO interference allowed by the rely
   and NO path through the loop body makes the job thread fault on that table *)
Theorem accepted_loop_never_faults rely (l : jloop) :
  loop_safe rely l = true ->
  forall o, exec (rely (jl_table l)) (jl_body l) true o -> o <> Fault.
Proof.
  unfold loop_safe. intros H o Hx. destruct (safe (rely (jl_table l)) false (jl_body l)) as [d'|] eqn:E; [|discriminate].
  intros ->. exact (safe_sound _ _ _ _ Hx _ _ E (fun _ _ => eq_refl)).
Qed.

(* the checker is not vacuous: an unprotected lookup in a table others delete from is rejected, and can fault *)
Example unsafe_is_rejected : safe true false (SSeq2 (SAcc KLookup false) (SAcc KDel false)) = None.
Proof. reflexivity. Qed.
Example unsafe_can_fault : exec true (SAcc KLookup false) true Fault.
Proof. apply ELookupFault with (p' := false); [exact I|reflexivity]. Qed.
