(* Dm14CliProofs.v — C17/C18 on the requesting-side state machine (theories/Dm14Cli.v).
   * a read whose server answers proceed / DM16 / operation-completed returns EXACTLY what the DM16 carries (raw) or the
     integers those bytes encode (converted), sends the closing DM14 and leaves the query idle with no callback left
   * an error DM15 (operation failed or busy, EDCP 6 or 7) is reported as an exception naming source, error code and EDCP
   * a server that never answers is reported as "no response"; in all cases the query is idle again afterwards *)
From J1939 Require Import Base Dm14Srv Dm14Model Dm14Cli.
From J1939P Require Import Dm14Proofs Dm14SrvProofs.
Open Scope Z_scope.

Definition fresh (s : cli) : Prop := q_dq s = [] /\ q_xq s = [] /\ q_subs s = [].

Definition dm14_frame (objcnt direct command addr key : Z) : list Z :=
  [objcnt; direct * 16 + command * 2 + 1] ++ le4 addr ++ [Z.land key 255; Z.shiftr key 8].

(* ---------------------------------------------------------------- no answer *)
Theorem read_no_response haskey keyf s dest direct addr objcnt size signed raw :
  fresh s -> 0 < objcnt ->
  exists s', cli_read haskey keyf s dest direct addr objcnt size signed raw [] =
             (s', [CSend 217 (Z.land dest 255) 6 (dm14_frame objcnt direct 1 addr 7)], CRRaise XNoResponse) /\
             q_state s' = Q_IDLE /\ q_subs s' = [] /\ q_dq s' = [] /\ q_xq s' = [].
Proof.
  intros (Hd & Hx & Hs) Hc. unfold cli_read. assert ((objcnt <=? 0) = false) as -> by lia.
  destruct s; cbn in Hd, Hx, Hs; subst. eexists. split; [reflexivity|]. repeat split.
Qed.

(* what _parse_dm15 reads from an 8-byte frame *)
Lemma frame8 x0 x1 x2 x3 x4 x5 x6 x7 (f := [x0; x1; x2; x3; x4; x5; x6; x7]) :
  py_get f 0 = Some x0 /\ py_get f 1 = Some x1 /\ py_get f 5 = Some x5 /\ py_get f 6 = Some x6 /\ py_get f 7 = Some x7 /\
  py_slice f 2 5 = [x2; x3; x4].
Proof. repeat split. Qed.

(* ---------------------------------------------------------------- an error response *)
Definition dm15_error (direct status e0 e1 e2 edcp : Z) : list Z := [0; direct * 16 + status * 2 + 1; e0; e1; e2; edcp; 255; 255].

(* the callback level: an 'operation failed' / 'busy' DM15 from the server with EDCP 6 or 7 wakes the waiting call (an
   item in the data queue) and queues the exception naming source address, 24-bit error code and EDCP *)
Theorem dm15_error_is_queued haskey keyf s dest direct status e0 e1 e2 edcp :
  q_dest s = Some dest -> 0 <= direct < 2 -> (status = 5 \/ status = 1) -> (edcp = 6 \/ edcp = 7) ->
  cparse_dm15 haskey keyf s PGN_DM15 dest (dm15_error direct status e0 e1 e2 edcp) =
  cok (cset_xq (cset_dq s (q_dq s ++ [None])) (q_xq s ++ [XDevice dest (e0 + 256 * (e1 + 256 * (e2 + 256 * 0))) edcp])).
Proof.
  intros Hd Hdir Hst Hed. unfold cparse_dm15, dm15_error.
  destruct (frame8 0 (direct * 16 + status * 2 + 1) e0 e1 e2 edcp 255 255) as (_ & -> & -> & -> & -> & ->).
  rewrite Hd, !Z.eqb_refl. cbv beta iota. rewrite (status_of_byte direct status Hdir ltac:(lia)).
  assert (((status =? 1) || (status =? 5)) = true) as -> by lia. assert (((edcp =? 6) || (edcp =? 7)) = true) as -> by lia.
  reflexivity.
Qed.

(* s1 is the query as cli_read leaves it before it waits, s4 what the wait makes of it *)
Lemma read_after_wait haskey keyf s dest direct addr objcnt size signed raw during s4 o4 item rest :
  0 < objcnt ->
  (let s1 := csub (cupd s (q_state s) (Some dest) direct addr objcnt size signed raw 1 (q_bytes s) (q_mem s) (q_dq s) (q_xq s) (q_subs s)) CB15 in
   cwait haskey keyf (cset_state s1 Q_WAIT_FOR_SEED) during = (s4, o4)) ->
  q_dq s4 = item :: rest ->
  snd (cli_read haskey keyf s dest direct addr objcnt size signed raw during) =
    match q_xq s4 with
    | x :: _ => CRRaise x
    | [] => CRValues (match item with Some ((_ :: _) as b) => if raw then b else bytes_to_values (Z.to_nat size) signed b | _ => [] end)
    end /\
  q_state (fst (fst (cli_read haskey keyf s dest direct addr objcnt size signed raw during))) = Q_IDLE.
Proof.
  intros Hc Hw Hq. unfold cli_read. assert ((objcnt <=? 0) = false) as -> by lia.
  unfold send_dm14. cbn [q_dest csub cset_subs cupd]. cbv zeta in Hw. cbn [csub cset_subs cupd] in Hw.
  rewrite Hw, Hq. cbn [q_xq cset_dq cupd]. destruct (q_xq s4); [destruct item as [[|]|]|]; split; reflexivity.
Qed.

Theorem read_raises_queued_exception haskey keyf s dest direct addr objcnt size signed raw during s4 o4 item rest x xr :
  0 < objcnt ->
  (let s1 := csub (cupd s (q_state s) (Some dest) direct addr objcnt size signed raw 1 (q_bytes s) (q_mem s) (q_dq s) (q_xq s) (q_subs s)) CB15 in
   cwait haskey keyf (cset_state s1 Q_WAIT_FOR_SEED) during = (s4, o4)) ->
  q_dq s4 = item :: rest -> q_xq s4 = x :: xr ->
  snd (cli_read haskey keyf s dest direct addr objcnt size signed raw during) = CRRaise x /\
  q_state (fst (fst (cli_read haskey keyf s dest direct addr objcnt size signed raw during))) = Q_IDLE.
Proof. intros Hc Hw Hq Hx. pose proof (read_after_wait _ _ _ _ _ _ _ _ _ _ _ _ _ _ _ Hc Hw Hq) as H. rewrite Hx in H. exact H. Qed.

(* ---------------------------------------------------------------- the data of a read *)
(* the DM16 of the server, while the query waits for it: EXACTLY the bytes the frame carries become the result *)
Theorem dm16_becomes_result s dest d0 rest :
  q_dest s = Some dest -> 0 <= d0 ->
  cparse_dm16 s PGN_DM16 dest (d0 :: rest) =
  cok (cset_state (csub (cunsub (cset_mem s (Some (Dm14Model.dm16_extract (d0 :: rest)))) CB16) CB15) Q_WAIT_FOR_OPER).
Proof.
  intros Hd H0. unfold cparse_dm16. rewrite Hd, py_get_0, !Z.eqb_refl, (py_slice_dm16 d0 rest H0). reflexivity.
Qed.

(* the closing DM15 hands that result to the waiting read and sends the closing DM14 (operation completed) *)
Theorem opcomplete_hands_over haskey keyf s dest direct :
  q_dest s = Some dest -> q_state s = Q_WAIT_FOR_OPER -> 0 <= direct < 2 -> q_objcnt s <> 0 ->
  exists s', cparse_dm15 haskey keyf s PGN_DM15 dest [0; direct * 16 + 4 * 2 + 1; 255; 255; 255; 255; 255; 255] =
             (s', [CSend 217 (Z.land dest 255) 6 (dm14_frame 1 (q_direct s) 4 (q_addr s) 65535)], None) /\
             q_dq s' = q_dq s ++ [q_mem s] /\ q_state s' = Q_IDLE /\ q_xq s' = q_xq s.
Proof.
  intros Hd Hst Hdir Hoc. unfold cparse_dm15.
  destruct (frame8 0 (direct * 16 + 4 * 2 + 1) 255 255 255 255 255 255) as (-> & -> & _ & -> & -> & _).
  rewrite Hd, !Z.eqb_refl. cbv beta iota. rewrite (status_of_byte direct 4 Hdir ltac:(lia)).
  assert ((0 =? q_objcnt s) = false) as -> by lia. rewrite Hst, andb_false_r.
  unfold send_dm14. cbn [q_dest cset_command cset_objcnt cupd]. rewrite Hd.
  eexists. split; [reflexivity|]. repeat split; reflexivity.
Qed.

Theorem read_returns_queue_head haskey keyf s dest direct addr objcnt size signed raw during s4 o4 b bs rest :
  0 < objcnt ->
  (let s1 := csub (cupd s (q_state s) (Some dest) direct addr objcnt size signed raw 1 (q_bytes s) (q_mem s) (q_dq s) (q_xq s) (q_subs s)) CB15 in
   cwait haskey keyf (cset_state s1 Q_WAIT_FOR_SEED) during = (s4, o4)) ->
  q_dq s4 = Some (b :: bs) :: rest -> q_xq s4 = [] ->
  snd (cli_read haskey keyf s dest direct addr objcnt size signed raw during) =
    CRValues (if raw then b :: bs else bytes_to_values (Z.to_nat size) signed (b :: bs)) /\
  q_state (fst (fst (cli_read haskey keyf s dest direct addr objcnt size signed raw during))) = Q_IDLE.
Proof.
  intros Hc Hw Hq Hx. pose proof (read_after_wait _ _ _ _ _ _ _ _ _ _ _ _ _ _ _ Hc Hw Hq) as H. rewrite Hx in H. exact H.
Qed.

(* non-vacuity, by evaluation: complete transactions through the model — a signed 2-byte read, a failed one, a write *)
Example client_transactions :
  let srv := 212 in
  let rd := cli_read false (fun x => x) init_cli srv 1 4096 2 2 true false
              [(PGN_DM15, srv, [2; 17; 255; 255; 255; 255; 255; 255]); (PGN_DM16, srv, [4; 254; 255; 1; 128; 255; 255; 255]);
               (PGN_DM15, srv, [0; 25; 255; 255; 255; 255; 255; 255])] in
  let er := cli_read false (fun x => x) init_cli srv 1 4096 2 1 false true [(PGN_DM15, srv, dm15_error 1 5 3 16 0 7)] in
  let wr := cli_write false (fun x => x) init_cli srv 1 4096 [7; 8; 9] 1
              [(PGN_DM15, srv, [3; 17; 255; 255; 255; 255; 255; 255]); (PGN_DM15, srv, [0; 25; 255; 255; 255; 255; 255; 255])] in
  snd rd = CRValues [-2; -32767] /\ q_state (fst (fst rd)) = Q_IDLE /\ q_subs (fst (fst rd)) = [] /\
  snd er = CRRaise (XDevice 212 4099 7) /\ q_state (fst (fst er)) = Q_IDLE /\
  snd wr = CRNone /\ snd (fst wr) = [CSend 217 212 6 [3; 21; 0; 16; 0; 0; 7; 0]; CSend 215 212 6 [3; 7; 8; 9];
                                       CSend 217 212 6 [1; 25; 0; 16; 0; 0; 255; 255]].
Proof. vm_compute. repeat split; reflexivity. Qed.

(* ---------------------------------------------------------------- the data of a write *)
(* write() stores the little-endian bytes of the values; when the server's proceed DM15 arrives the query sends ONE DM16
   to the server carrying exactly those bytes in the framing whose extraction (on the server: C17_write_stores_exact_bytes)
   returns them unchanged (Dm14Model.dm16_frame / C17_dm16_roundtrip) *)
Theorem write_sends_exact_bytes s dest :
  q_dest s = Some dest -> q_state s = Q_WAIT_FOR_SEED -> q_command s = 2 ->
  cwait_for_data s = (cset_state s Q_WAIT_FOR_OPER, [CSend 215 (Z.land dest 255) 6 (Dm14Model.dm16_frame (q_bytes s))], None).
Proof.
  intros Hd Hst Hc. unfold cwait_for_data, csend_dm16. rewrite Hst, Hc, Hd. reflexivity.
Qed.

