(* Net21Seq.v — C10/C01 end to end over a history (T10.18 / T01.12): any number of J1939-21 connection-mode transfers run
   one after the other between two model nodes (each submitted when the network has come to rest) ALL deliver: after every
   one the nodes meet the premises of the closed-loop theorem again, so the theorem applies to the next. *)
From J1939 Require Import Base CodecGlue Model21.
From J1939.gen Require Import Codec Tp21Gen CaGen.
From J1939P Require Import CodecProofs Flat Tp21Seg Tp21Resp Tp21Orig Net21 Net21Proofs.
Local Arguments Z.add : simpl never.
Local Arguments Z.mul : simpl never.

(* the logs of the network are write-only: a step neither reads nor reorders what was recorded before *)
Record logs := { l_eva : list out; l_evb : list out; l_wab : list frame; l_wba : list frame }.
Definition plog (L : logs) (s : net) : net :=
  {| na := na s; nb := nb s; qa := qa s; qb := qb s; clk := clk s;
     eva := l_eva L ++ eva s; evb := l_evb L ++ evb s; wab := l_wab L ++ wab s; wba := l_wba L ++ wba s |}.

Lemma step_plog L s : step (plog L s) = plog L (step s).
Proof.
  unfold step, plog. cbn [na nb qa qb clk eva evb wab wba].
  destruct (qb s) as [|f r].
  - destruct (qa s) as [|f r].
    + destruct (flat (job_iter (na s) (clk s))) as [[a' oa] ra]. destruct (flat (job_iter (nb s) (clk s))) as [[b' ob] rb].
      cbn [na nb qa qb clk eva evb wab wba]. rewrite <- !app_assoc. reflexivity.
    + destruct (handle (na s) (clk s) f) as [n' os]. cbn [na nb qa qb clk eva evb wab wba]. rewrite <- !app_assoc. reflexivity.
  - destruct (handle (nb s) (clk s) f) as [n' os]. cbn [na nb qa qb clk eva evb wab wba]. rewrite <- !app_assoc. reflexivity.
Qed.
Lemma steps_plog L : forall j s, steps j (plog L s) = plog L (steps j s).
Proof. induction j as [|j IH]; intros s; cbn [steps]; [reflexivity|]. rewrite step_plog. apply IH. Qed.
Lemma net_send_plog L s dp pf ps prio sa d : net_send (plog L s) dp pf ps prio sa d = plog L (net_send s dp pf ps prio sa d).
Proof.
  unfold net_send, plog. cbn [na nb qa qb clk eva evb wab wba].
  destruct (flat (send_pgn (na s) (clk s) dp pf ps prio sa d)) as [[a' os] r].
  cbn [na nb qa qb clk eva evb wab wba]. rewrite <- !app_assoc. reflexivity.
Qed.
Lemma rest_is_plog s : qa s = [] -> qb s = [] ->
  s = plog {| l_eva := eva s; l_evb := evb s; l_wab := wab s; l_wba := wba s |} (net0 (na s) (nb s) (clk s)).
Proof. intros Ha Hb. destruct s. cbn in *. subst. unfold plog, net0. cbn. rewrite !app_nil_r. reflexivity. Qed.
(* so a run that starts at rest is the run from the empty network with the same nodes and clock, under what was logged before *)
Lemma steps_from_rest s j dp pf ps prio sa d : qa s = [] -> qb s = [] ->
  steps j (net_send s dp pf ps prio sa d) =
  plog {| l_eva := eva s; l_evb := evb s; l_wab := wab s; l_wba := wba s |}
       (steps j (net_send (net0 (na s) (nb s) (clk s)) dp pf ps prio sa d)).
Proof. intros Ha Hb. rewrite (rest_is_plog s Ha Hb) at 1. rewrite net_send_plog, steps_plog. reflexivity. Qed.

Record msg := { m_dp : Z; m_pf : Z; m_prio : Z; m_data : list Z }.
Definition msg_ok (m : msg) : Prop := 0 <= m_dp m < 2 /\ 0 <= m_pf m < 240 /\ 0 <= m_prio m < 8 /\ 8 < len (m_data m) <= 1785.
Fixpoint seq_reach (sa dest : Z) (s : net) (ms : list msg) (s' : net) : Prop :=
  match ms with
  | [] => s' = s
  | m :: r => exists j, seq_reach sa dest (steps j (net_send s (m_dp m) (m_pf m) dest (m_prio m) sa (m_data m))) r s'
  end.
Definition wire_of (sa dest maxp : Z) (m : msg) : list frame :=
  let pv := m_dp m * 65536 + m_pf m * 256 in
  let num := Z.of_nat (npk (length (m_data m))) in
  tp21_rts sa dest (m_prio m) pv (len (m_data m)) num (Z.min maxp num)
  :: map (fun k => tp21_dt sa dest (dt_payload (m_data m) (Z.of_nat k))) (seq 0 (npk (length (m_data m)))).

Definition premA (sa : Z) (a : node) : Prop :=
  n_snd a = [] /\ n_rcv a = [] /\ n_timers a = [] /\ n_cmdt_iv a = None /\ accepts a sa = true /\ 1 <= n_maxp a.
Definition premB (dest : Z) (b : node) : Prop :=
  n_snd b = [] /\ n_rcv b = [] /\ n_timers b = [] /\ accepts b dest = true /\ 1 <= n_maxp b.

Lemma deliveries_same b b' prio pgn sa dest d : n_subs b' = n_subs b -> n_cas b' = n_cas b ->
  deliveries b' prio pgn sa dest d = deliveries b prio pgn sa dest d.
Proof.
  intros E1 E2. unfold deliveries, deliveries_from. rewrite E1. f_equal. apply filter_ext. intros x.
  unfold sub_matches. rewrite E2. reflexivity.
Qed.

Theorem sequence_delivers sa dest : 0 <= sa < 255 -> 0 <= dest < 255 ->
  forall ms s, Forall msg_ok ms -> qa s = [] -> qb s = [] -> 0 < clk s -> premA sa (na s) -> premB dest (nb s) ->
  exists s', seq_reach sa dest s ms s' /\
    qa s' = [] /\ qb s' = [] /\ premA sa (na s') /\ premB dest (nb s') /\
    evb s' = evb s ++ concat (map (fun m => deliveries (nb s) 7 (m_dp m * 65536 + m_pf m * 256) sa dest (m_data m)) ms) /\
    wab s' = wab s ++ concat (map (wire_of sa dest (n_maxp (na s))) ms).
Proof.
  intros Hsa Hdest. induction ms as [|m r IH]; intros s Hok Hqa Hqb Hc HA HB.
  - exists s. cbn [seq_reach map concat]. rewrite !app_nil_r.
    exact (conj eq_refl (conj Hqa (conj Hqb (conj HA (conj HB (conj eq_refl eq_refl)))))).
  - pose proof (Forall_inv Hok) as (Hdp & Hpf & Hpr & Hlen). pose proof (Forall_inv_tail Hok) as Hr.
    destruct (closed_loop_restores (m_prio m) sa dest (m_dp m) (m_pf m) (m_data m) (clk s) (na s) (nb s)
                Hpr Hsa Hdest Hpf Hdp Hlen Hc HA HB) as (j & (Q1 & Q2 & Qc & Qe & Qw) & HA' & HB' & Qm & Qs & Qcas).
    (* the state after this transfer: queues, nodes and clock are those of the run from the empty network *)
    pose proof (steps_from_rest s j (m_dp m) (m_pf m) dest (m_prio m) sa (m_data m) Hqa Hqb) as E1.
    set (s1 := plog _ _) in E1.
    destruct (IH s1 Hr Q1 Q2 (Z.lt_le_trans _ _ _ Hc Qc) HA' HB') as (s' & Hreach & R1 & R2 & RA & RB & Re & Rw).
    rewrite <- E1 in Hreach. exists s'. refine (conj (ex_intro _ j Hreach) (conj R1 (conj R2 (conj RA (conj RB _))))).
    rewrite Re, Rw. unfold s1. cbn [plog evb wab na nb map concat l_evb l_wab]. rewrite Qe, Qw, Qm, <- !app_assoc.
    split; [|reflexivity]. do 3 f_equal. apply map_ext. intros m'. apply deliveries_same; assumption.
Qed.

Example sequence_instance :
  let A := subscribe (init_node 3 None None) 1 (FAddr 128) in
  let B := subscribe (init_node 2 None None) 7 (FAddr 144) in
  let p1 := map Z.of_nat (seq 1 20) in let p2 := map Z.of_nat (seq 5 9) in
  let s1 := steps 12 (net_send (net0 A B 1000) 0 239 144 6 128 p1) in
  let s2 := steps 9 (net_send s1 1 18 144 3 128 p2) in
  quiet s2 = true /\ evb s2 = [OCb 7 7 61184 128 p1; OCb 7 7 70144 128 p2] /\ length (wab s2) = 7%nat.
Proof. vm_compute. repeat split. Qed.
