(* PoolProofs.v — C02/C10 (J1939-22): the originator session pools.
   skel m = (which send sessions exist, with which session number and destination; the two pools).
   * capacity: send_pgn22 is refused iff the relevant pool has no free flag, and then nothing changes (T02.7)
   * conservation: the pool invariant is preserved by allocation and by every exit of the job pass (T02.6/T10.1)
   * T02.1: segments cuts the data into pieces of at most 60 bytes whose concatenation is the data
   The two pools are handled as one, indexed by the kind of a session: [pool_of m (kind b)] is the pool that
   [b]'s number was taken from and goes back to.
   [fnode22], [fouts22], [fres22] (final node, outputs, result of an FD resumption run by [flat22]) are defined here. *)
From J1939 Require Import Base CodecGlue Model21 Model22.
From J1939.gen Require Import Codec Tp21Gen CaGen Tp22Gen.
From J1939P Require Import CodecProofs Flat MpgProofs.

Definition fnode22 (a : act node22) : node22 := fst (fst (flat22 a)).
Definition fouts22 (a : act node22) : list out := snd (fst (flat22 a)).
Definition fres22 (a : act node22) : res := snd (flat22 a).

Definition proj (kb : Z * sbuf22) : Z * Z * Z * Z := (fst kb, t_session (snd kb), t_dst (snd kb), t_src (snd kb)).
Definition skel (m : node22) : list (Z * Z * Z * Z) * list bool * list bool := (map proj (f_snd m), f_rts m, f_bam m).

(* ---------------------------------------------------------------- the two pools as one *)
Definition kind (b : sbuf22) : bool := t_dst b =? addr_GLOBAL.
Definition pool_of (m : node22) (g : bool) : list bool := if g then f_bam m else f_rts m.
Definition set_pool (m : node22) (g : bool) (l : list bool) : node22 := if g then set_fbam m l else set_frts m l.

Lemma pool_of_set_pool m g l g' : pool_of (set_pool m g l) g' = if Bool.eqb g g' then l else pool_of m g'.
Proof. destruct g, g'; reflexivity. Qed.
Lemma f_snd_set_pool m g l : f_snd (set_pool m g l) = f_snd m.
Proof. destruct g; reflexivity. Qed.
Lemma pool_of_set_fsnd m t g : pool_of (set_fsnd m t) g = pool_of m g.
Proof. reflexivity. Qed.

Lemma put_session_eq m b k :
  put_session m b k = match pool_put (pool_of m (kind b)) (t_session b) with
                      | Some l => k (set_pool m (kind b) l)
                      | None => Raise m E_Index
                      end.
Proof. unfold put_session, put_bam, put_rts, pool_of, set_pool, kind. destruct (t_dst b =? addr_GLOBAL); reflexivity. Qed.

Lemma nth_error_upd_nth {A} (l : list A) : forall i j x,
  nth_error (upd_nth l i x) j = if ((i =? j) && (i <? length l))%nat then Some x else nth_error l j.
Proof.
  induction l as [|y r IH]; intros i j x.
  - rewrite Bool.andb_false_r. destruct i; reflexivity.
  - destruct i as [|i], j as [|j]; try reflexivity. apply IH.
Qed.
Lemma upd_nth_same {A} (l : list A) i x : (i < length l)%nat -> nth_error (upd_nth l i x) i = Some x.
Proof. intros H. rewrite nth_error_upd_nth, Nat.eqb_refl, (proj2 (Nat.ltb_lt _ _) H). reflexivity. Qed.
Lemma upd_nth_other {A} (l : list A) i j x : i <> j -> nth_error (upd_nth l i x) j = nth_error l j.
Proof. intros H. rewrite nth_error_upd_nth, (proj2 (Nat.eqb_neq _ _) H). reflexivity. Qed.
Lemma upd_nth_length {A} (l : list A) : forall i x, length (upd_nth l i x) = length l.
Proof. induction l as [|y r IH]; intros [|i] x; cbn; try reflexivity. f_equal. apply IH. Qed.

Lemma pool_flag_after_write m g s x g' i y :
  nth_error (pool_of (set_pool m g (upd_nth (pool_of m g) s x)) g') i = Some y ->
  (g' = g /\ i = s /\ y = x) \/ ((g' = g -> i <> s) /\ nth_error (pool_of m g') i = Some y).
Proof.
  rewrite pool_of_set_pool. intros H.
  destruct (Bool.eqb_spec g g') as [<-|N]; [|right; split; [congruence|exact H]].
  rewrite nth_error_upd_nth in H. destruct (Nat.eqb_spec s i) as [<-|N]; [|right; split; [congruence|exact H]].
  destruct (Nat.ltb_spec s (length (pool_of m g))) as [_|Hge]; cbn [andb] in H.
  - injection H as <-. left. repeat split.
  - apply nth_error_None in Hge. rewrite Hge in H. discriminate.
Qed.

(* pool_put wraps a negative number as Python list indexing does; session numbers are never negative ([pool_inv]),
   so only this branch is met *)
Lemma pool_put_nonneg l s : 0 <= s ->
  pool_put l s = if s <? Z.of_nat (length l) then Some (upd_nth l (Z.to_nat s) true) else None.
Proof.
  intros H. assert (E : (s <? 0) = false) by lia. unfold pool_put. rewrite E. cbv zeta. rewrite E. cbn [orb].
  rewrite Z.geb_leb, Z.leb_antisym. destruct (s <? Z.of_nat (length l)); reflexivity.
Qed.
Lemma pool_put_spec l s l' : 0 <= s -> pool_put l s = Some l' -> l' = upd_nth l (Z.to_nat s) true.
Proof.
  intros Hs H. rewrite (pool_put_nonneg l s Hs) in H. destruct (s <? _); [|discriminate]. injection H as <-. reflexivity.
Qed.

(* ---------------------------------------------------------------- what skel determines *)
Lemma skel_with_base m n : skel (with_base m n) = skel m.
Proof. reflexivity. Qed.
Lemma skel_set_frcv m t : skel (set_frcv m t) = skel m.
Proof. reflexivity. Qed.
Lemma skel_set_fmpg m t : skel (set_fmpg m t) = skel m.
Proof. reflexivity. Qed.
Lemma skel_wake22 m : skel (wake22 m) = skel m.
Proof. reflexivity. Qed.

Lemma tget_proj (t : tbl sbuf22) h b : tget t h = Some b -> In (h, t_session b, t_dst b, t_src b) (map proj t).
Proof.
  induction t as [|[k v] r IH]; [discriminate|]. cbn [tget map]. destruct (k =? h) eqn:E.
  - intros H. injection H as <-. left. assert (k = h) as -> by lia. reflexivity.
  - intros H. right. apply IH. exact H.
Qed.

Lemma skel_tget (t t' : tbl sbuf22) : map proj t = map proj t' ->
  forall h b, tget t h = Some b -> exists b', tget t' h = Some b' /\ t_session b' = t_session b /\ t_dst b' = t_dst b /\ t_src b' = t_src b.
Proof.
  revert t'. induction t as [|[k v] r IH]; intros [|[k' v'] r'] E h b H; try discriminate.
  cbn [map] in E. injection E as <- Es Ed Er Et. cbn [tget] in *. destruct (k =? h).
  - injection H as <-. exists v'. auto.
  - exact (IH r' Et h b H).
Qed.

Lemma skel_snd_get m m' h b : skel m' = skel m -> tget (f_snd m) h = Some b ->
  exists b', tget (f_snd m') h = Some b' /\ t_session b' = t_session b /\ t_dst b' = t_dst b /\ t_src b' = t_src b.
Proof. intros E. injection E as E1 _ _. exact (skel_tget _ _ (eq_sym E1) h b). Qed.
Lemma skel_pool_of m m' g : skel m' = skel m -> pool_of m' g = pool_of m g.
Proof. intros E. injection E as _ E2 E3. destruct g; assumption. Qed.
Lemma skel_tkeys m m' : skel m' = skel m -> tkeys (f_snd m') = tkeys (f_snd m).
Proof.
  intros E. injection E as E1 _ _. apply (f_equal (map (fun x => fst (fst (fst x))))) in E1.
  rewrite !map_map in E1. exact E1.
Qed.

Lemma map_proj_tset_congr (t t' : tbl sbuf22) h b b' : map proj t = map proj t' -> proj (h, b) = proj (h, b') ->
  map proj (tset t h b) = map proj (tset t' h b').
Proof.
  intros E Eb. revert t' E. induction t as [|[k v] r IH]; intros [|[k' v'] r'] E; try discriminate; cbn [tset map].
  - f_equal. exact Eb.
  - cbn [map] in E. injection E as <- Es Ed Er Et.
    assert (Ep : proj (k, v) = proj (k, v')) by (unfold proj; cbn [fst snd]; rewrite Er, Ed, Es; reflexivity).
    destruct (k =? h); cbn [map]; f_equal; [exact Eb|exact Et|exact Ep|exact (IH r' Et)].
Qed.

Lemma skel_upd m h b b' :
  tget (f_snd m) h = Some b -> t_session b' = t_session b -> t_dst b' = t_dst b -> t_src b' = t_src b ->
  skel (set_fsnd m (tset (f_snd m) h b')) = skel m.
Proof.
  intros G Hs Hd Hr. unfold skel. cbn [f_snd f_rts f_bam set_fsnd]. rewrite <- (tset_tget_id _ _ _ G) at 2.
  rewrite (map_proj_tset_congr _ (f_snd m) h b' b eq_refl); [reflexivity|]. unfold proj. cbn [fst snd]. congruence.
Qed.

(* ---------------------------------------------------------------- T02.7 capacity *)
Lemma pool_get_none l : forall i, pool_get l i = None <-> Forall (fun b => b = false) l.
Proof.
  induction l as [|b r IH]; intros i; cbn [pool_get]; [split; [constructor|reflexivity]|].
  destruct b.
  - split; [discriminate|]. intros H. inversion H; discriminate.
  - specialize (IH (i + 1)). destruct (pool_get r (i + 1)) as [[j r']|].
    + split; [discriminate|]. intros H. inversion H; subst. apply IH in H3. discriminate.
    + split; [|reflexivity]. intros _. constructor; [reflexivity|]. apply IH. reflexivity.
Qed.

Lemma pool_get_some l : forall i j l', pool_get l i = Some (j, l') ->
  i <= j < i + Z.of_nat (length l) /\ nth_error l (Z.to_nat (j - i)) = Some true /\
  l' = upd_nth l (Z.to_nat (j - i)) false /\
  (forall k, (k < Z.to_nat (j - i))%nat -> nth_error l k = Some false).
Proof.
  induction l as [|b r IH]; intros i j l' H; cbn [pool_get] in H; [discriminate|].
  destruct b.
  - inversion H; subst. replace (j - j) with 0 by lia. change (Z.to_nat 0) with 0%nat. cbn [nth_error upd_nth length].
    split; [lia|]. split; [reflexivity|]. split; [reflexivity|]. intros k Hk. lia.
  - destruct (pool_get r (i + 1)) as [[j0 r0]|] eqn:E; [|discriminate]. inversion H; subst.
    destruct (IH _ _ _ E) as (A & B & C & D). cbn [length].
    replace (Z.to_nat (j - i)) with (S (Z.to_nat (j - (i + 1)))) by lia.
    cbn [nth_error upd_nth]. split; [lia|]. split; [exact B|]. split; [f_equal; exact C|].
    intros k Hk. destruct k; [reflexivity|]. cbn [nth_error]. apply D. lia.
Qed.

(* T02.7: send_pgn returns False (RDone 0), emits nothing and changes nothing *)
Theorem refused_when_pool_exhausted m now dp pf ps prio sa data tl ff :
  tp22_TP < len data ->
  let global := (ps =? addr_GLOBAL) || pgn_is_pdu2_of 0 pf ps in
  Forall (fun b => b = false) (if global then f_bam m else f_rts m) ->
  flat22 (send_pgn22 m now dp pf ps prio sa data tl ff) = (m, [], RDone 0).
Proof.
  intros Hl global Hfull. unfold send_pgn22. destruct (pgn_mk dp pf ps) as [[pdp ppf] pps].
  assert ((len data <=? tp22_TP) = false) as -> by lia. fold global.
  destruct global; rewrite (proj2 (pool_get_none _ 0) Hfull); reflexivity.
Qed.

(* with a free flag the send is accepted (the number it takes is the lowest free one: [pool_get_some]) *)
Theorem accepted_when_pool_has_room m now dp pf ps prio sa data tl ff :
  tp22_TP < len data ->
  let global := (ps =? addr_GLOBAL) || pgn_is_pdu2_of 0 pf ps in
  ~ Forall (fun b => b = false) (if global then f_bam m else f_rts m) ->
  fres22 (send_pgn22 m now dp pf ps prio sa data tl ff) = RDone 1.
Proof.
  intros Hl global Hroom. unfold fres22, send_pgn22. destruct (pgn_mk dp pf ps) as [[pdp ppf] pps].
  assert ((len data <=? tp22_TP) = false) as -> by lia. fold global.
  destruct (pool_get (pool_of m global) 0) as [[s p']|] eqn:E; [|contradiction Hroom; apply (pool_get_none _ 0), E].
  destruct global; cbn [pool_of] in E; rewrite E; reflexivity.
Qed.

(* ---------------------------------------------------------------- T02.6 / T10.1 the pool invariant *)
Definition flag_of (m : node22) (b : sbuf22) : option bool :=
  if t_dst b =? addr_GLOBAL then nth_error (f_bam m) (Z.to_nat (t_session b))
  else nth_error (f_rts m) (Z.to_nat (t_session b)).

Lemma flag_of_eq m b : flag_of m b = nth_error (pool_of m (kind b)) (Z.to_nat (t_session b)).
Proof. unfold flag_of, pool_of, kind. destruct (t_dst b =? addr_GLOBAL); reflexivity. Qed.

Lemma flag_of_upd_same m g s x b :
  kind b = g -> t_session b = s -> (Z.to_nat s < length (pool_of m g))%nat ->
  flag_of (set_pool m g (upd_nth (pool_of m g) (Z.to_nat s) x)) b = Some x.
Proof.
  intros <- <- Hl. rewrite flag_of_eq, pool_of_set_pool, Bool.eqb_reflx. apply upd_nth_same. exact Hl.
Qed.
Lemma flag_of_upd_other m g s x b :
  0 <= s -> 0 <= t_session b -> (kind b = g -> t_session b <> s) ->
  flag_of (set_pool m g (upd_nth (pool_of m g) (Z.to_nat s) x)) b = flag_of m b.
Proof.
  intros Hs Hb Hne. rewrite !flag_of_eq, pool_of_set_pool. destruct (Bool.eqb_spec g (kind b)) as [E|_]; [|reflexivity].
  subst g. apply upd_nth_other. specialize (Hne eq_refl). lia.
Qed.

(* every originator session holds its flag (false = taken) in the pool of its kind, and sessions of one kind
   have pairwise different session numbers: so concurrent sessions never share a (session, sa, da) key by number *)
Definition pool_inv (m : node22) : Prop :=
  (forall h b, tget (f_snd m) h = Some b -> 0 <= t_session b /\ flag_of m b = Some false) /\
  (forall h1 h2 b1 b2, h1 <> h2 -> tget (f_snd m) h1 = Some b1 -> tget (f_snd m) h2 = Some b2 ->
       (t_dst b1 =? addr_GLOBAL) = (t_dst b2 =? addr_GLOBAL) -> t_session b1 <> t_session b2) /\
  tnodup (f_snd m).

Lemma pool_inv_init maxp civ biv : pool_inv (init_node22 maxp civ biv).
Proof.
  unfold pool_inv, init_node22. cbn [f_snd]. repeat split; try (intros; discriminate).
  unfold tnodup. cbn. constructor.
Qed.

Lemma free_flag_unused m g s h b :
  pool_inv m -> nth_error (pool_of m g) (Z.to_nat s) = Some true -> tget (f_snd m) h = Some b -> kind b = g ->
  t_session b <> s.
Proof.
  intros (I1 & _) Hfree G <- E. destruct (I1 h b G) as [_ F]. rewrite flag_of_eq, E, Hfree in F. discriminate.
Qed.

Theorem pool_inv_skel m m' : pool_inv m -> skel m' = skel m -> pool_inv m'.
Proof.
  intros (I1 & I2 & I3) E. assert (S1 := fun h b => skel_snd_get m' m h b (eq_sym E)).
  split; [|split].
  - intros h b H. destruct (S1 h b H) as (b0 & H0 & Hs & Hd & _). destruct (I1 h b0 H0) as [A B].
    rewrite flag_of_eq in *. rewrite (skel_pool_of m m' _ E). unfold kind. rewrite <- Hs, <- Hd. split; assumption.
  - intros h1 h2 b1 b2 Hn H1 H2 Hk.
    destruct (S1 h1 b1 H1) as (c1 & G1 & Hs1 & Hd1 & _). destruct (S1 h2 b2 H2) as (c2 & G2 & Hs2 & Hd2 & _).
    rewrite <- Hs1, <- Hs2. apply (I2 h1 h2 c1 c2 Hn G1 G2). rewrite Hd1, Hd2. exact Hk.
  - unfold tnodup. rewrite (skel_tkeys m m' E). exact I3.
Qed.

(* ---------------------------------------------------------------- release: deleting an originator session and
   returning its number to the pool of its kind preserves the invariant (every exit of the job pass that drops a
   session has this form: Model22.snd_pass22 has four of them, each [del_then] followed by [put_session]) *)
Lemma release_pool_inv m h b : pool_inv m -> tget (f_snd m) h = Some b ->
  pool_inv (set_pool (set_fsnd m (tdel (f_snd m) h)) (kind b) (upd_nth (pool_of m (kind b)) (Z.to_nat (t_session b)) true)).
Proof.
  intros (I1 & I2 & I3) Hget. destruct (I1 h b Hget) as [Hs0 _].
  assert (Hrest := fun h' b' => tget_tdel_some (f_snd m) h h' b' I3).
  unfold pool_inv. rewrite f_snd_set_pool. split; [|split].
  - intros h' b' H'. destruct (Hrest h' b' H') as [Hn Hg]. destruct (I1 h' b' Hg) as [A B]. split; [exact A|]. rewrite <- B.
    apply (flag_of_upd_other (set_fsnd m _)); [exact Hs0|exact A|]. exact (I2 h' h b' b Hn Hg Hget).
  - intros h1 h2 b1 b2 Hn H1 H2. exact (I2 h1 h2 b1 b2 Hn (proj2 (Hrest h1 b1 H1)) (proj2 (Hrest h2 b2 H2))).
  - apply tnodup_tdel. exact I3.
Qed.

Theorem release_preserves m h b :
  pool_inv m -> tget (f_snd m) h = Some b ->
  let m1 := set_fsnd m (tdel (f_snd m) h) in
  forall m2, (if t_dst b =? addr_GLOBAL
              then exists l, pool_put (f_bam m1) (t_session b) = Some l /\ m2 = set_fbam m1 l
              else exists l, pool_put (f_rts m1) (t_session b) = Some l /\ m2 = set_frts m1 l) ->
  pool_inv m2.
Proof.
  intros HI Hget m1 m2 Hput. destruct (proj1 HI h b Hget) as [Hs0 _].
  pose proof (release_pool_inv m h b HI Hget) as H. unfold kind, set_pool, pool_of in H.
  destruct (t_dst b =? addr_GLOBAL); destruct Hput as (l & Hl & ->); apply pool_put_spec in Hl; try exact Hs0; subst l; exact H.
Qed.

(* ---------------------------------------------------------------- allocation *)
Lemma hash22_arith s a d :
  tp22_hash s a d = (s mod 16) * 65536 + (a mod 256) * 256 + d mod 256.
Proof.
  unfold tp22_hash. rewrite land_15, !land_255. rewrite !shiftl_mul by lia. pow2_norm.
  rewrite (lor_add_low (s mod 16 * 65536) (a mod 256 * 256) 16) by (pow2_norm; lia).
  rewrite (lor_add_low (s mod 16 * 65536 + a mod 256 * 256) (d mod 256) 8) by (pow2_norm; lia).
  reflexivity.
Qed.

Lemma hash22_inj s a d s' a' d' :
  0 <= s < 16 -> 0 <= a < 256 -> 0 <= d < 256 -> 0 <= s' < 16 -> 0 <= a' < 256 -> 0 <= d' < 256 ->
  tp22_hash s a d = tp22_hash s' a' d' -> s = s' /\ a = a' /\ d = d'.
Proof. intros Hs Ha Hd Hs' Ha' Hd'. rewrite !hash22_arith, !Z.mod_small by assumption. lia. Qed.

Definition keys_ok (m : node22) : Prop :=
  (forall h b, tget (f_snd m) h = Some b ->
      h = tp22_hash (t_session b) (t_src b) (t_dst b) /\ 0 <= t_session b < 16 /\ 0 <= t_dst b < 256 /\ 0 <= t_src b < 256) /\
  length (f_rts m) = tp22_pool_rts /\ length (f_bam m) = tp22_pool_bam.

Lemma keys_ok_init maxp civ biv : keys_ok (init_node22 maxp civ biv).
Proof. unfold keys_ok, init_node22. cbn [f_snd f_rts f_bam]. split; [intros; discriminate|]. split; apply repeat_length. Qed.

Theorem keys_ok_skel m m' : keys_ok m -> skel m' = skel m -> keys_ok m'.
Proof.
  intros (K1 & K2 & K3) E. split.
  - intros h b H. destruct (skel_snd_get m' m h b (eq_sym E) H) as (b0 & H0 & Hs & Hd & Hsr).
    rewrite <- Hs, <- Hd, <- Hsr. exact (K1 h b0 H0).
  - injection E as _ -> ->. split; assumption.
Qed.

(* the shape of send_pgn22's allocation: m0 takes number s from the pool of the right kind, m1 stores the new session
   under its key *)
Theorem allocation_preserves m s pool' sa dest b :
  pool_inv m -> keys_ok m -> 0 <= sa < 256 -> 0 <= dest < 256 ->
  pool_get (if dest =? addr_GLOBAL then f_bam m else f_rts m) 0 = Some (s, pool') ->
  t_session b = s -> t_dst b = dest -> t_src b = sa ->
  let m0 := if dest =? addr_GLOBAL then set_fbam m pool' else set_frts m pool' in
  let m1 := set_fsnd m0 (tset (f_snd m0) (tp22_hash s sa dest) b) in
  pool_inv m1 /\ keys_ok m1 /\ tget (f_snd m) (tp22_hash s sa dest) = None.
Proof.
  intros HI (K1 & K2 & K3) Hsa Hd Hget <- <- <-. cbv zeta.
  change (pool_get (pool_of m (kind b)) 0 = Some (t_session b, pool')) in Hget.
  change (if t_dst b =? addr_GLOBAL then set_fbam m pool' else set_frts m pool') with (set_pool m (kind b) pool').
  remember (kind b) as g eqn:Hk. set (s := t_session b) in *.
  destruct (pool_get_some _ _ _ _ Hget) as (Hrng & Hfree & -> & _). rewrite Z.sub_0_r in Hfree |- *.
  assert (Hs16 : 0 <= s < 16).
  { destruct g; cbn [pool_of] in Hrng; [rewrite K3 in Hrng|rewrite K2 in Hrng]; unfold tp22_pool_bam, tp22_pool_rts in Hrng; lia. }
  assert (Hlen : (Z.to_nat s < length (pool_of m g))%nat) by lia.
  pose proof (fun h' b' => free_flag_unused m g s h' b' HI Hfree) as Hunused.
  (* the key is fresh: an entry there would be a session of the same kind with number s, whose flag is taken *)
  assert (Hfresh : tget (f_snd m) (tp22_hash s (t_src b) (t_dst b)) = None).
  { destruct (tget (f_snd m) _) as [b0|] eqn:G; [exfalso|reflexivity].
    destruct (K1 _ _ G) as (Hh & R1 & R2 & R3).
    destruct (hash22_inj _ _ _ _ _ _ Hs16 Hsa Hd R1 R3 R2 Hh) as (Es & _ & Ed).
    apply (Hunused _ _ G); [|symmetry; exact Es]. rewrite Hk. unfold kind. rewrite Ed. reflexivity. }
  destruct HI as (I1 & I2 & I3).
  split; [|split; [|exact Hfresh]]; unfold pool_inv, keys_ok; cbn [f_snd f_rts f_bam set_fsnd]; rewrite f_snd_set_pool.
  - split; [|split].
    + apply tbl_all_tset.
      * intros h b' G. destruct (I1 h b' G) as [A B]. split; [exact A|]. rewrite <- B.
        apply (flag_of_upd_other m g s false b'); [lia|exact A|exact (Hunused h b' G)].
      * split; [lia|]. apply (flag_of_upd_same m g s false b (eq_sym Hk) eq_refl Hlen).
    + intros h1 h2 b1 b2 Hn H1 H2 Hkk.
      destruct (tget_tset_some _ _ _ _ _ H1) as [[-> ->]|[_ G1]], (tget_tset_some _ _ _ _ _ H2) as [[-> ->]|[_ G2]].
      * contradiction Hn; reflexivity.
      * intros Eq. apply (Hunused h2 b2 G2); [rewrite Hk; symmetry; exact Hkk|symmetry; exact Eq].
      * apply (Hunused h1 b1 G1). rewrite Hk. exact Hkk.
      * exact (I2 h1 h2 b1 b2 Hn G1 G2 Hkk).
    + apply tnodup_tset. exact I3.
  - split.
    + apply tbl_all_tset; [exact K1|]. repeat split; lia.
    + destruct g; cbn [set_pool pool_of f_rts f_bam set_fbam set_frts]; rewrite ?upd_nth_length; split; assumption.
Qed.

(* ---------------------------------------------------------------- T02.1 segmentation into 60-byte segments *)
Lemma chunks_concat : forall fuel d, (length d / 60 < fuel)%nat -> concat (chunks fuel d) = d.
Proof.
  induction fuel as [|f IH]; intros d H; [lia|]. cbn [chunks].
  destruct (Nat.ltb_spec (length d) 60) as [L|L].
  - cbn. apply app_nil_r.
  - cbn [concat]. rewrite IH.
    + apply firstn_skipn.
    + rewrite skipn_length.
      assert (length d / 60 = S ((length d - 60) / 60))%nat as E.
      { replace (length d) with ((length d - 60) + 1 * 60)%nat at 1 by lia. rewrite Nat.div_add by lia. lia. }
      lia.
Qed.
Lemma chunks_small : forall fuel d, Forall (fun s => (length s <= 60)%nat) (chunks fuel d).
Proof.
  induction fuel as [|f IH]; intros d; cbn [chunks]; [constructor|].
  destruct (Nat.ltb_spec (length d) 60) as [L|L].
  - constructor; [lia|constructor].
  - constructor; [rewrite firstn_length; lia|apply IH].
Qed.
Theorem segments_reassemble d :
  concat (segments d) = d /\ Forall (fun s => (length s <= 60)%nat) (segments d).
Proof. unfold segments. split; [apply chunks_concat; lia|apply chunks_small]. Qed.

Example pool_example :
  let m0 := init_node22 3 None None in
  let d := repeat 7 100 in
  let m1 := fnode22 (send_pgn22 m0 0 0 208 32 6 16 d 0 3) in
  f_rts m1 = [false; true; true; true; true; true; true; true] /\ pool_inv m1.
Proof.
  cbv zeta. split; [vm_compute; reflexivity|].
  refine (pool_inv_skel _ _ (proj1 (allocation_preserves (init_node22 3 None None) 0 _ 16 32
            (mk_sbuf22 53248 6 0 100 2 (segments (repeat 7 100)) tp22_st_WAITING_CTS (0 + tp22_T3) 16 32 (Some 0))
            (pool_inv_init 3 None None) (keys_ok_init 3 None None) ltac:(lia) ltac:(lia) eq_refl eq_refl eq_refl eq_refl)) _).
  vm_compute. reflexivity.
Qed.
