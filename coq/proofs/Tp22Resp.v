(* Tp22Resp.v — C02 (J1939-22): the FD responder collects EXACTLY the payload and delivers it exactly once.
   An RTS for a free key opens a session; the in-sequence data frames DT_k, DT_k+1, ... (ANY chunking, ANY padding after the
   last byte, ANY instants) leave it with data = firstn size (data ++ concat chunks) and next = k + number of frames; so after
   the frames of a message of the announced size the collected data IS the payload, and the end-of-message status
   (Tp22Proofs.eom_status_delivers_exactly) delivers it.  [dt_frame_shape]: the frames the model's originator builds are of
   the form assumed here. *)
From J1939 Require Import Base CodecGlue Model21 Model22.
From J1939.gen Require Import Codec Tp21Gen CaGen Tp22Gen.
From J1939P Require Import CodecProofs Flat Tp21Seg Tp21Resp TimeoutProofs MpgProofs PoolProofs Steps22 Tp22Proofs.
Local Arguments Z.add : simpl never.
Local Arguments Z.sub : simpl never.
Local Arguments Z.mul : simpl never.

Lemma dt_hdr_fields s k rest : 0 <= s < 16 -> 0 <= k < 16777216 ->
  tp22_dt_session_num (tp22_dt_header s k 0 ++ rest) = s /\ tp22_dt_segment_num (tp22_dt_header s k 0 ++ rest) = k.
Proof.
  intros Hs Hk. unfold tp22_dt_session_num, tp22_dt_segment_num, tp22_dt_header. cbn [app byte_at nth].
  split.
  - change (Z.land 0 15) with 0. rewrite Z.lor_0_l. rewrite !land_15, shiftl_mul, shiftr_div by lia. pow2_norm. lia.
  - rewrite !land_255, !shiftr_div by lia. pow2_norm. rewrite !Z.mod_mod by lia. apply le24. exact Hk.
Qed.

(* ---------------------------------------------------------------- the whole data phase *)
Fixpoint dt_frames (s k : Z) (chunks : list (list Z * Z)) : list (list Z * Z) :=
  match chunks with
  | [] => []
  | (c, now) :: r => (tp22_dt_header s k 0 ++ c, now) :: dt_frames s (k + 1) r
  end.

Lemma firstn_firstn_app {A} (n : nat) (x y : list A) : firstn n (firstn n x ++ y) = firstn n (x ++ y).
Proof.
  destruct (Nat.le_gt_cases n (length x)) as [H|H].
  - rewrite !firstn_app. rewrite firstn_firstn, Nat.min_id. rewrite firstn_length, Nat.min_l by exact H.
    replace (n - n)%nat with 0%nat by lia. replace (n - length x)%nat with 0%nat by lia. reflexivity.
  - rewrite (firstn_all2 x) by lia. reflexivity.
Qed.

Lemma upd_q_twice b d n bd dl d1 n1 bd1 dl1 d2 n2 :
  d1 = d2 -> n1 = n2 -> upd_q (upd_q b d n bd dl) d1 n1 bd1 dl1 = upd_q b d2 n2 bd1 dl1.
Proof. intros <- <-. reflexivity. Qed.

(* border and deadline of the result are existential: whatever the last frame left *)
Theorem responder22_collects prio sa dest s : forall chunks m b k,
  0 <= s < 16 -> 0 < k -> k + Z.of_nat (length chunks) <= 16777216 ->
  Forall (fun c => fst c <> []) chunks ->
  tget (f_rcv m) (tp22_hash s sa dest) = Some b -> q_next b = k -> len (q_data b) <= q_size b ->
  no_delivery (snd (feed_dt22 prio sa dest (dt_frames s k chunks) m)) /\
  exists bd dl, tget (f_rcv (fst (feed_dt22 prio sa dest (dt_frames s k chunks) m))) (tp22_hash s sa dest) =
    Some (upd_q b (firstn (Z.to_nat (q_size b)) (q_data b ++ concat (map fst chunks))) (k + Z.of_nat (length chunks)) bd dl).
Proof.
  induction chunks as [|[c now] r IH]; intros m b k Hs Hk Hmax Hne G Hn Hle; cbn [dt_frames feed_dt22 map concat length fst snd].
  - split; [reflexivity|]. exists (q_border b), (q_deadline b).
    rewrite G, app_nil_r, firstn_all2, Z.add_0_r, <- Hn by (unfold len in Hle; lia). destruct b; reflexivity.
  - apply Forall_cons_iff in Hne. destruct Hne as [Hc Hr]. cbn [fst] in Hc. cbn [length] in Hmax.
    destruct (dt_hdr_fields s k c Hs ltac:(lia)) as [Fs Fk].
    pose proof (dt22_accepted prio sa dest (tp22_dt_header s k 0 ++ c) now m b) as Hstep.
    rewrite Fs, Fk in Hstep.
    destruct Hstep as (bd & dl & m1 & os & r1 & E & Hr1 & _); [|lia|exact G|exact Hn|].
    { rewrite app_length. cbn [tp22_dt_header length]. destruct c; [contradiction|cbn [length]; lia]. }
    replace (fnode22 (process_tp_dt22 prio sa dest (tp22_dt_header s k 0 ++ c) now m)) with m1 by (unfold fnode22; rewrite E; reflexivity).
    destruct (IH m1 _ (k + 1) Hs ltac:(lia) ltac:(lia) Hr (eq_trans (f_equal (fun t => tget t _) Hr1) (tget_tset_same _ _ _))
                 (f_equal (fun x => x + 1) Hn)) as (Hnd2 & bd2 & dl2 & G2).
    { unfold len in *. cbn [upd_q q_data q_size]. rewrite firstn_length. lia. }
    destruct (feed_dt22 prio sa dest (dt_frames s (k + 1) r) m1) as [m2 o2]. cbn [fst snd] in *.
    split; [apply no_delivery_app; [apply dt22_no_delivery|exact Hnd2]|].
    exists bd2, dl2. rewrite G2. f_equal. apply upd_q_twice; [|lia].
    cbn [upd_q q_data q_size]. rewrite firstn_firstn_app, app_assoc. reflexivity.
Qed.

(* ---------------------------------------------------------------- RTS opens the session *)
Definition rts_frame_ok (data : list Z) : Prop :=
  (12 <= length data)%nat /\ tp22_cm_control_byte data = tp22_ctl_RTS.

Theorem responder22_rts_opens prio sa dest data now m :
  rts_frame_ok data ->
  let h := tp22_hash (tp22_cm_session_num data) sa dest in
  tget (f_rcv m) h = None ->
  let g := Z.min (n_maxp (base m)) (Z.min (byte_at data 7) (tp22_cm_segment_num data)) in
  let b := {| q_pgn := tp22_cm_pgn data; q_session := tp22_cm_session_num data; q_size := tp22_cm_message_size data;
              q_nseg := tp22_cm_segment_num data; q_next := 1; q_border := Some g; q_maxrec := Some g; q_data := [];
              q_deadline := now + tp22_T2; q_src := sa; q_dst := dest |} in
  flat22 (process_tp_cm22 prio sa dest data now m) =
    (wake22 (set_frcv m (tset (f_rcv m) h b)), [OTx (tp22_cts dest sa (tp22_cm_session_num data) g 1 (tp22_cm_pgn data))], RDone 0).
Proof.
  intros [H1 H2] h G g b. unfold process_tp_cm22.
  assert ((length data <? 12)%nat = false) as -> by (apply Nat.ltb_ge; exact H1).
  rewrite H2. change (tp22_ctl_RTS =? tp22_ctl_RTS) with true. cbv iota. fold h. rewrite (tmem_none _ _ G).
  cbn [flat22]. reflexivity.
Qed.

(* T02.3: a session opened for a message of [length p] bytes, fed the in-sequence data frames whose chunks
   concatenate to p followed by ANY padding, then the end-of-message status announcing the same size and segment
   count: the listeners get p — exactly once per matching subscriber, nothing else — and, for a connection-mode
   transfer, the peer gets the end-of-message acknowledgement; the session is released *)
Theorem responder22_delivers_exactly prio sa dest s p pad chunks eom now m b :
  0 <= s < 16 -> Z.of_nat (length chunks) < 16777215 ->
  Forall (fun c => fst c <> []) chunks -> concat (map fst chunks) = p ++ pad ->
  tget (f_rcv m) (tp22_hash s sa dest) = Some b -> q_next b = 1 -> q_data b = [] -> q_size b = len p ->
  eom_frame_ok eom -> tp22_cm_session_num eom = s -> tp22_cm_message_size eom = len p -> tp22_cm_segment_num eom = q_nseg b ->
  let '(m1, o1) := feed_dt22 prio sa dest (dt_frames s 1 chunks) m in
  no_delivery o1 /\
  fouts22 (process_tp_cm22 prio sa dest eom now m1) =
    deliveries (base m1) prio (q_pgn b) sa dest p ++
    (if dest =? addr_GLOBAL then [] else [OTx (tp22_eom_ack dest sa s (len p) (q_nseg b) (q_pgn b))]) /\
  f_rcv (fnode22 (process_tp_cm22 prio sa dest eom now m1)) = tdel (f_rcv m1) (tp22_hash s sa dest).
Proof.
  intros Hs Hn Hne Hcat G Hnext Hdata Hsize Hok Es Esz Eseg.
  destruct (responder22_collects prio sa dest s chunks m b 1 Hs ltac:(lia) ltac:(lia) Hne G Hnext) as (Hnd & bd & dl & G1).
  { rewrite Hdata, Hsize. unfold len. cbn [length]. lia. }
  rewrite Hdata, Hcat, Hsize in G1. unfold len in G1. cbn [app] in G1. rewrite Nat2Z.id, (firstn_app_pad p pad) in G1.
  destruct (feed_dt22 prio sa dest (dt_frames s 1 chunks) m) as [m1 o1]. cbn [fst snd] in *.
  split; [exact Hnd|]. rewrite <- Es in G1.
  destruct (eom_status_delivers_exactly prio sa dest eom now m1 _ Hok G1 (eq_trans Hsize (eq_sym Esz)) (eq_sym Eseg) (eq_sym Hsize)) as [Ho Hr].
  rewrite Ho, Hr, Es, Esz, Eseg. split; reflexivity.
Qed.

(* every data frame the model's originator builds for a segment of at most 60 bytes is  header ++ segment ++ padding
   with padding bytes 0xFF only: the chunks of responder22_delivers_exactly *)
Theorem dt_frame_shape src dst s k seg fr seg' :
  dt_frame src dst s k seg = Some (fr, seg') -> (length seg <= 60)%nat ->
  exists pad, f_data fr = tp22_dt_header s k 0 ++ (seg ++ pad) /\ Forall (fun x => x = tp22_dt_pad) pad /\
              f_id fr = tp22_dt_id src dst.
Proof.
  intros H Hl. destruct (dt_frame_inv _ _ _ _ _ _ _ H) as (rest & -> & Hfit). destruct (Hfit Hl) as (n & -> & _).
  exists (repeat tp22_dt_pad n). split; [reflexivity|]. split; [|reflexivity].
  apply Forall_forall. intros x Hx. apply (repeat_spec _ _ _ Hx).
Qed.

(* non-vacuity: a 130-byte message through the model's own segmentation and frame builder, received by the model's
   responder: three frames (60 + 60 + 10 bytes, the last padded to a legal FD length), then the status *)
Example fd_end_to_end_data :
  let p := map Z.of_nat (seq 1 130) in
  let segs := firstn 3 (segments p) in
  let frs := map (fun ks => match dt_frame 16 32 0 (fst ks) (snd ks) with Some (fr, _) => f_data fr | None => [] end)
                 (combine [1; 2; 3] segs) in
  let b := {| q_pgn := 53248; q_session := 0; q_size := 130; q_nseg := 3; q_next := 1; q_border := Some 3; q_maxrec := Some 3;
              q_data := []; q_deadline := 1250000; q_src := 16; q_dst := 32 |} in
  let m := set_frcv (init_node22 8 None None) [(tp22_hash 0 16 32, b)] in
  let '(m1, o1) := feed_dt22 7 16 32 (combine frs [10; 20; 30]) m in
  (map (fun f => length f) frs = [64; 64; 16]%nat) /\
  match tget (f_rcv m1) (tp22_hash 0 16 32) with Some b1 => q_data b1 = p | None => False end.
Proof. vm_compute. split; reflexivity. Qed.
