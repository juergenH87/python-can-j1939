(* Net21Jobs.v — one iteration of the job thread (Model21.job_iter) on a node that has no timers and at most one transport
   session.  The iteration is then the pass over that one session, and what the pass does is what the role theorems of
   TimeoutProofs, PacingProofs and Tp21Orig say; here each is carried through to the node, the outputs and the sleep. *)
From J1939 Require Import Base CodecGlue Model21.
From J1939.gen Require Import Codec Tp21Gen CaGen.
From J1939P Require Import Flat TimerProofs Steps21 Tp21Seg Tp21Resp Tp21Orig TimeoutProofs PacingProofs.
Local Arguments Z.add : simpl never.
Local Arguments Z.sub : simpl never.

(* the tail of job_iter after the receive and the send pass: the timer pass, then the sleep until the wake-up time kept so far *)
Definition job_end (t : Z) (n : node) (nw : Z) : act node := timer_pass (n_timers n) t nw n (fun n2 nw2 => Done n2 (nw2 - t)).
Lemma job_end_done t n nw : n_timers n = [] -> flat (job_end t n nw) = (n, [], RDone (nw - t)).
Proof. intros Ht. unfold job_end. rewrite Ht. reflexivity. Qed.

Lemma job_idle n t : n_rcv n = [] -> n_snd n = [] -> n_timers n = [] -> flat (job_iter n t) = (n, [], RDone (t + 5000000 - t)).
Proof.
  intros Hr Hs Ht. unfold job_iter, dll_job. rewrite Hr. cbn [tkeys map rcv_pass]. rewrite Hs.
  exact (job_end_done t n _ Ht).
Qed.

Section Receiving.
  Variables (n : node) (h : Z) (rb : rbuf) (t : Z).
  Hypothesis Hr : n_rcv n = [(h, rb)].
  Hypothesis Hs : n_snd n = [].
  Hypothesis Ht : n_timers n = [].

  Lemma job_rcv : job_iter n t = rcv_pass [h] t (t + 5000000) n (fun n1 nw1 => snd_pass (tkeys (n_snd n1)) t nw1 n1 (job_end t)).
  Proof using Hr. unfold job_iter, dll_job. rewrite Hr. reflexivity. Qed.

  Lemma one_rcv : tget (n_rcv n) h = Some rb.
  Proof using Hr. rewrite Hr. apply tget_single. Qed.

  Lemma job_rcv_wait : 0 <= t < r_deadline rb ->
    flat (job_iter n t) = (n, [], RDone (Z.min (t + 5000000) (r_deadline rb) - t)).
  Proof using Hr Hs Ht.
    intros Hd. rewrite job_rcv, (rcv_before_deadline h t _ n _ rb one_rcv) by lia.
    rewrite Hs, <- min_nw_min. exact (job_end_done t n _ Ht).
  Qed.

  Lemma job_rcv_timeout : r_deadline rb <> 0 -> r_deadline rb <= t -> r_dst rb <> addr_GLOBAL ->
    flat (job_iter n t) =
    (set_rcv n [], [OTx (tp21_abort (r_dst rb) (r_src rb) tp21_reason_TIMEOUT (r_pgn rb))], RDone (t + 5000000 - t)).
  Proof using Hr Hs Ht.
    intros H0 Hd Hg. rewrite job_rcv, (rcv_timeout_releases h t _ n _ rb one_rcv H0 Hd), (eqb_false _ _ Hg).
    cbv zeta. nsimpl. rewrite Hs, Hr, tdel_single. exact (f_equal (pre _) (job_end_done t (set_rcv n []) _ Ht)).
  Qed.
End Receiving.

Section Sending.
  Variables (n : node) (h : Z) (sb : sbuf) (t : Z).
  Hypothesis Hr : n_rcv n = [].
  Hypothesis Hs : n_snd n = [(h, sb)].
  Hypothesis Ht : n_timers n = [].

  Lemma job_snd : job_iter n t = snd_pass [h] t (t + 5000000) n (job_end t).
  Proof using Hr Hs. unfold job_iter, dll_job. rewrite Hr. cbn [tkeys map rcv_pass]. rewrite Hs. reflexivity. Qed.

  Lemma one_snd : tget (n_snd n) h = Some sb.
  Proof using Hs. rewrite Hs. apply tget_single. Qed.

  Lemma job_snd_wait : 0 <= t < s_deadline sb ->
    flat (job_iter n t) = (n, [], RDone (Z.min (t + 5000000) (s_deadline sb) - t)).
  Proof using Hr Hs Ht.
    intros Hd. rewrite job_snd, (snd_pass_wait h [] t _ n _ sb one_snd), min_nw_min by lia.
    exact (job_end_done t n _ Ht).
  Qed.

  Lemma job_snd_timeout : s_state sb = ST_WAITING_CTS -> s_deadline sb <> 0 -> s_deadline sb <= t ->
    flat (job_iter n t) =
    (set_snd n [], [OTx (tp21_abort (s_src sb) (s_dst sb) tp21_reason_TIMEOUT (s_pgn sb))], RDone (t + 5000000 - t)).
  Proof using Hr Hs Ht.
    intros Hst H0 Hd. rewrite job_snd, (snd_timeout_releases h t _ n _ sb one_snd Hst H0 Hd).
    cbv zeta. rewrite job_end_done by exact Ht. rewrite Hs, tdel_single. reflexivity.
  Qed.

  Lemma job_snd_finished : s_state sb = ST_FINISHED -> s_deadline sb <> 0 -> s_deadline sb <= t ->
    flat (job_iter n t) = (set_snd n [], [], RDone (t + 5000000 - t)).
  Proof using Hr Hs Ht.
    intros Hst H0 Hd. rewrite job_snd, (finished_session_removed h t _ n _ sb one_snd Hst H0 Hd), job_end_done by exact Ht.
    rewrite Hs, tdel_single. reflexivity.
  Qed.

  Lemma job_bam_send : s_state sb = ST_SENDING_BM -> s_deadline sb <> 0 -> s_deadline sb <= t ->
    exists r, flat (job_iter n t) =
      (set_snd n (if s_next sb + 1 <? s_num sb then [(h, upd_sbuf sb ST_SENDING_BM (t + n_bam_iv n) (s_next sb + 1))] else []),
       [OTx (tp21_dt (s_src sb) (s_dst sb) (dt_payload (s_data sb) (s_next sb)))], RDone r).
  Proof using Hr Hs Ht.
    intros Hst H0 Hd. rewrite job_snd. destruct (Z.ltb_spec (s_next sb + 1) (s_num sb)) as [Hn|Hn].
    - rewrite (bam_sends_one_and_rearms h t _ n _ sb one_snd Hst H0 Hd Hn).
      cbv zeta. rewrite job_end_done by exact Ht. rewrite Hs, tset_single. eexists. reflexivity.
    - rewrite (bam_sends_last h t _ n _ sb one_snd Hst H0 Hd Hn), job_end_done by exact Ht.
      rewrite Hs, tdel_single. eexists. reflexivity.
  Qed.

End Sending.

Lemma job_snd_burst n sa dest sb (g : nat) x t :
  n_rcv n = [] -> n_snd n = [(tp21_hash sa dest, sb)] -> n_timers n = [] -> n_cmdt_iv n = None ->
  s_state sb = ST_SENDING_IN_CTS -> s_next sb = x -> s_waitcts sb = Some (x + Z.of_nat g) ->
  x + Z.of_nat g < s_num sb -> 0 <= x -> s_deadline sb <> 0 -> s_deadline sb <= t ->
  exists r, flat (job_iter n t) =
    (set_snd n [(tp21_hash sa dest, upd_sbuf sb ST_WAITING_CTS (t + tp21_T3) (x + Z.of_nat g + 1))],
     dts (s_src sb) (s_dst sb) (s_data sb) x (S g), RDone r).
Proof.
  intros Hr Hs Ht Hi Hst Hx Hw Hlt Hx0 H0 Hd. rewrite (job_snd n _ sb t Hr Hs).
  rewrite (window_burst sa dest n sb g x t _ _ (one_snd n _ sb Hs) Hi Hst Hx Hw Hlt Hx0 H0 Hd).
  cbv zeta. rewrite job_end_done, app_nil_r by exact Ht. rewrite Hs, tset_single. eexists. reflexivity.
Qed.
