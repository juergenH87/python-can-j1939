(* Net21Bam.v — C01 end to end, broadcast: in the closed loop of two model nodes (Net21.v) a BAM transfer of ANY payload p
   (9 .. 1785 bytes) to the global address delivers exactly p, once, to the listeners on B; the clock of the network
   advances by the originator's packet interval between the packets (the interval being shorter than the listener's T1);
   afterwards nothing is queued and no session is left on either side. *)
From J1939 Require Import Base CodecGlue Model21.
From J1939.gen Require Import Codec Tp21Gen CaGen.
From J1939P Require Import CodecProofs Flat Steps21 Tp21Seg Tp21Resp Tp21Orig Tp21Bam WireProofs Net21 NetCommon Net21Jobs Net21Proofs.
Local Arguments Z.add : simpl never.
Local Arguments Z.sub : simpl never.
Local Arguments Z.mul : simpl never.

(* the frames A puts on the wire, each with the network's time at the step that emitted it *)
Definition newtx (s s' : net) : list (Z * frame) := map (fun f => (clk s, f)) (skipn (length (wab s)) (wab s')).
Fixpoint tlog (j : nat) (s : net) : list (Z * frame) :=
  match j with O => [] | S j' => newtx s (step s) ++ tlog j' (step s) end.
Lemma newtx_same s s' : wab s' = wab s -> newtx s s' = [].
Proof. intros E. unfold newtx. rewrite E, skipn_all. reflexivity. Qed.
Lemma newtx_snoc s s' l : wab s' = wab s ++ l -> newtx s s' = map (fun f => (clk s, f)) l.
Proof. intros E. unfold newtx. rewrite E, skipn_app, skipn_all, Nat.sub_diag. reflexivity. Qed.

(* the PGN a broadcast is delivered under: dp.pf.00 for a PDU1 group sent to the global address (ps = 255), dp.pf.ps for a PDU2
   group (any group extension) *)
Definition bam_pgn (dp pf ps : Z) : Z := if pf <? 240 then dp * 65536 + pf * 256 else dp * 65536 + pf * 256 + ps.
Lemma bam_pgn_pdu1 dp pf ps : pf < 240 -> bam_pgn dp pf ps = dp * 65536 + pf * 256.
Proof. intros H. unfold bam_pgn. rewrite (proj2 (Z.ltb_lt _ _) H). reflexivity. Qed.

Lemma job_quiet n c : n_rcv n = [] -> n_snd n = [] -> n_timers n = [] -> flat (job_iter n c) = (n, [], RDone (c + 5000000 - c)).
Proof. exact (job_idle n c). Qed.

(* what a completed broadcast of p under the group number pv leaves behind, and when its packets left: said once for the
   variants of the theorem below (any group / PDU1 with pv written out) and for props/C01.v, C09.v *)
Section Claims.
  Variables (prio sa pv : Z) (p : list Z) (B0 : node).
  Let bamf := tp21_bam sa prio pv (len p) (Z.of_nat (npk (length p))).
  Let delivered := deliveries B0 7 pv sa addr_GLOBAL p.

  Definition bam_delivered (s : net) : Prop :=
    qa s = [] /\ qb s = [] /\ n_snd (na s) = [] /\ n_rcv (na s) = [] /\ n_snd (nb s) = [] /\ n_rcv (nb s) = [] /\
    evb s = delivered /\ wab s = bamf :: dtfs sa addr_GLOBAL p 0 (npk (length p)).

  (* the announcement leaves at t0, packet k (counted from 0) at t0 + (k+1)·iv *)
  Definition bam_paced (t0 iv : Z) (s0 : net) : Prop :=
    wab s0 = [bamf] /\ clk s0 = t0 /\
    exists j, (qa (steps j s0) = [] /\ qb (steps j s0) = [] /\ n_snd (na (steps j s0)) = [] /\ n_rcv (nb (steps j s0)) = [] /\
               evb (steps j s0) = delivered) /\
      tlog j s0 = map (fun k => (t0 + Z.of_nat (S k) * iv, dtf sa addr_GLOBAL p k)) (seq 0 (npk (length p))).
End Claims.

Section BamLoop.
  Variables (prio sa dp pf ps : Z) (p : list Z) (t0 : Z) (A0 B0 : node).
  Hypothesis Hprio : 0 <= prio < 8.
  Hypothesis Hsa : 0 <= sa < 255.
  (* a PDU1 group sent to the global address, or a PDU2 group (a broadcast whatever its group extension) *)
  Hypothesis Hkind : (0 <= pf < 240 /\ ps = 255) \/ (240 <= pf < 256 /\ 0 <= ps < 256).
  Hypothesis Hdp : 0 <= dp < 2.
  Hypothesis Hsize : 8 < len p <= 1785.
  Hypothesis Ht0 : 0 < t0.
  Let pv := bam_pgn dp pf ps.
  Let np := npk (length p).
  Let num := Z.of_nat np.
  Let G := addr_GLOBAL.
  Let h := tp21_hash sa G.
  Let iv := n_bam_iv A0.
  Hypothesis Hiv : 0 < iv < tp21_T1.
  Hypothesis HA : n_snd A0 = [] /\ n_rcv A0 = [] /\ n_timers A0 = [].
  Hypothesis HB : n_snd B0 = [] /\ n_rcv B0 = [] /\ n_timers B0 = [].

  Definition sbB (dl nx : Z) : sbuf :=
    {| s_pgn := pv; s_prio := prio; s_size := len p; s_num := num; s_data := p; s_state := ST_SENDING_BM; s_deadline := dl;
       s_src := sa; s_dst := G; s_next := nx; s_waitcts := None; s_nb := 0 |}.
  Definition bamf : frame := tp21_bam sa prio pv (len p) num.

  Definition benvA (a : node) : Prop := n_rcv a = [] /\ n_timers a = [] /\ n_bam_iv a = iv.
  Definition benvB (b : node) : Prop := n_snd b = [] /\ n_timers b = [] /\ n_subs b = n_subs B0 /\ n_cas b = n_cas B0.

  Lemma send_pgn_bam a now : n_snd a = [] ->
    flat (send_pgn a now dp pf ps prio sa p) =
    (wake (set_snd a [(h, sbB (now + n_bam_iv a) 0)]), [OTx bamf], RDone 1).
  Proof.
    intros Hs. unfold send_pgn. unfold pgn_mk. rewrite !land_255, land_1.
    assert (Hpfr : 0 <= pf < 256) by lia. assert (Hpsr : 0 <= ps < 256) by lia.
    rewrite !Z.mod_small by lia.
    assert ((len p <=? 8) = false) as -> by lia.
    rewrite pgn_is_pdu2_of_leb by lia.
    assert ((ps =? addr_GLOBAL) || (240 <=? pf) = true) as -> by (unfold addr_GLOBAL; lia).
    fold G. fold h. unfold tmem. rewrite Hs. cbn [tget].
    change (G =? addr_GLOBAL) with true. cbv iota.
    assert (Hpv : pgn_value dp pf (if pgn_is_pdu1 pf then 0 else ps) = pv)
      by (rewrite pgn_is_pdu1_ltb by lia; unfold pv, bam_pgn; destruct (pf <? 240); rewrite pgn_value_arith by lia; lia).
    rewrite Hpv.
    replace (num_packets (len p)) with num by (unfold num, np, len; symmetry; apply num_packets_npk).
    rewrite Z.eqb_refl. cbn [flat]. rewrite Hs. reflexivity.
  Qed.

  Definition rbB (dl : Z) (d : list Z) : rbuf :=
    {| r_pgn := pv; r_size := len p; r_num := num; r_next := 1; r_maxrec := None; r_data := d; r_deadline := dl;
       r_src := sa; r_dst := G |}.

  (* the announcement is the spec's BAM frame, so the stack's readers return what it was built from (WireProofs) *)
  Lemma bam_fields :
    let d := f_data bamf in
    length d = 8%nat /\ tp21_cm_control d = tp21_cm_BAM /\ tp21_cm_pgn d = pv /\
    tp21_bam_message_size d = len p /\ tp21_bam_num_packages d = num.
  Proof.
    unfold bamf. rewrite bam_is_spec by lia.
    apply (extraction_of_spec_frames (Sae21.BAM (len p) num pv)). split; [lia|]. unfold pv, bam_pgn. destruct (pf <? 240); lia.
  Qed.

  Lemma acceptsG b : accepts b G = true.
  Proof. reflexivity. Qed.

  Lemma hB_bam b c : n_rcv b = [] -> handle b c bamf = (wake (set_rcv b [(h, rbB (c + tp21_T1) [])]), []).
  Proof.
    intros Hr. destruct bam_fields as (L & C & P & S & N).
    rewrite (handle_cm b c bamf prio sa G eq_refl) by (try apply acceptsG; unfold G, addr_GLOBAL; lia).
    rewrite (cm_bam prio sa G _ c b (Nat.eq_le_incl _ _ (eq_sym L)) C), P, S, N. cbv zeta. fold h.
    unfold tmem. rewrite Hr. cbn [tget]. rewrite Hr. reflexivity.
  Qed.

  Lemma hB_bdt b c dl (k : nat) : benvB b -> n_rcv b = [(h, rbB dl (segs p k))] -> (k < np)%nat ->
    if (S k =? np)%nat
    then exists b', handle b c (dtf sa G p k) = (b', deliveries B0 7 pv sa G p) /\ benvB b' /\ n_rcv b' = []
    else handle b c (dtf sa G p k) = (wake (set_rcv b [(h, rbB (c + tp21_T1) (segs p (S k)))]), []).
  Proof.
    intros (Bs & Bt & Bsub & Bcas) Hr Hk. unfold dtf, G.
    rewrite handle_dt by (try apply acceptsG; unfold addr_GLOBAL; lia).
    rewrite (bam_dt_step 7 sa pv p k b (rbB dl (segs p k)) c Hk) by (rewrite ?Hr; first [apply tget_single|repeat split]).
    fold G h np. rewrite Hr. destruct (S k =? np)%nat.
    - rewrite tdel_single, (deliveries_env B0 b) by assumption.
      eexists. split; [reflexivity|]. split; [repeat split; assumption|reflexivity].
    - rewrite tset_single. reflexivity.
  Qed.

  (* the shapes of this loop (Net21Proofs.shape).  B never transmits, so nothing is ever queued for A; the arguments left
     are the time, the frames queued for B, what B's listeners have got and what A has put on the wire.
       Sh0       A has sent the announcement and armed its session one interval ahead; B has not seen it yet
       ShWait k  k packets are through: A waits for the interval to pass, B for the next packet (its T1 runs from the last)
       ShDue k   nothing to do, so the clock has moved on to A's deadline
       ShFly k   A's job thread has sent packet k and re-armed (after the last packet: closed); the packet is queued for B *)
  Definition bdelivered : list out := deliveries B0 7 pv sa G p.
  Notation bshape c := (shape benvA benvB c []).
  Notation dtfs := (dtfs sa G p).

  (* at_time 0: the announcement leaves; at_time k: the k-th packet, [dtf sa G p (k-1)], leaves *)
  Definition at_time (k : nat) : Z := t0 + Z.of_nat k * iv.
  Lemma at_time_0 : at_time 0 = t0.
  Proof. unfold at_time. lia. Qed.
  Lemma at_time_S k : at_time k + iv = at_time (S k).
  Proof. unfold at_time. lia. Qed.
  Lemma at_time_pos k : 0 < at_time k.
  Proof. unfold at_time. pose proof (Z.mul_nonneg_nonneg (Z.of_nat k) iv). lia. Qed.

  Definition Sh0 : net -> Prop :=
    bshape t0 [bamf] [] [bamf] (fun a b => n_snd a = [(h, sbB (t0 + iv) 0)] /\ n_rcv b = []).
  Definition ShWait (k : nat) : net -> Prop :=
    bshape (at_time k) [] [] (bamf :: dtfs 0 k) (fun a b =>
      (k < np)%nat /\ n_snd a = [(h, sbB (at_time k + iv) (Z.of_nat k))] /\ n_rcv b = [(h, rbB (at_time k + tp21_T1) (segs p k))]).
  Definition ShDue (k : nat) : net -> Prop :=
    bshape (at_time (S k)) [] [] (bamf :: dtfs 0 k) (fun a b =>
      (k < np)%nat /\ n_snd a = [(h, sbB (at_time (S k)) (Z.of_nat k))] /\ n_rcv b = [(h, rbB (at_time k + tp21_T1) (segs p k))]).
  Definition ShFly (k : nat) : net -> Prop :=
    bshape (at_time (S k)) [dtf sa G p k] [] (bamf :: dtfs 0 (S k)) (fun a b =>
      (k < np)%nat /\ n_snd a = (if Z.of_nat k + 1 <? num then [(h, sbB (at_time (S k) + iv) (Z.of_nat k + 1))] else []) /\
      n_rcv b = [(h, rbB (at_time k + tp21_T1) (segs p k))]).
  (* the end: the broadcast is through and the nodes meet the premises HA, HB, Hiv, Ht0 again, with the same listeners and
     CAs on B, so that the theorem applies to the next broadcast (Net21BamSeq) *)
  Definition brestored (s : net) : Prop :=
    (qa s = [] /\ qb s = [] /\ 0 < clk s /\ evb s = bdelivered /\ wab s = bamf :: dtfs 0 np) /\
    (n_snd (na s) = [] /\ n_rcv (na s) = [] /\ n_timers (na s) = [] /\ n_bam_iv (na s) = iv) /\
    (n_snd (nb s) = [] /\ n_rcv (nb s) = [] /\ n_timers (nb s) = [] /\ n_subs (nb s) = n_subs B0 /\ n_cas (nb s) = n_cas B0).

  Lemma B0_bam s : Sh0 s -> ShWait 0 (step s) /\ newtx s (step s) = [].
  Proof.
    intros (a & b & ea & wb & -> & Ea & Eb & Hs & Hr). rewrite (step_b (hB_bam b t0 Hr)). cbn [txs flat_map evs filter app].
    split; [|apply newtx_same; reflexivity]. pose proof (npk_range p Hsize). rewrite <- at_time_0 in Hs |- *.
    apply shape_intro; [exact Ea|exact Eb|]. split; [unfold num in *; lia|]. split; [exact Hs|reflexivity].
  Qed.

  Lemma B1_wait k s : ShWait k s -> ShDue k (step s) /\ newtx s (step s) = [].
  Proof.
    intros (a & b & ea & wb & -> & Ea & Eb & Hk & Hs & Hr). pose proof (at_time_pos k) as Hc.
    pose proof Ea as (Ar & At & _). pose proof Eb as (Bs & Bt & _).
    rewrite (step_idle_quiet (job_snd_wait a h _ (at_time k) Ar Hs At ltac:(cbn [sbB s_deadline]; lia))
                             (job_rcv_wait b h _ (at_time k) Hr Bs Bt ltac:(cbn [rbB r_deadline]; unfold tp21_T1; lia)) eq_refl eq_refl).
    split; [|apply newtx_same; reflexivity]. cbn [sbB s_deadline rbB r_deadline].
    replace (Z.max 0 _) with iv by (unfold tp21_T1 in *; lia). rewrite at_time_S in Hs |- *.
    apply shape_intro; [exact Ea|exact Eb|]. split; [exact Hk|]. split; [exact Hs|exact Hr].
  Qed.

  Lemma B2_due k s : ShDue k s -> ShFly k (step s) /\ newtx s (step s) = [(at_time (S k), dtf sa G p k)].
  Proof.
    intros (a & b & ea & wb & -> & Ea & Eb & Hk & Hs & Hr). pose proof (at_time_pos (S k)) as Hc. pose proof (at_time_S k) as Hc'.
    pose proof Ea as (Ar & At & Ai). pose proof Eb as (Bs & Bt & _).
    destruct (job_bam_send a h _ (at_time (S k)) Ar Hs At eq_refl) as (ra & Hja); [cbn [sbB s_deadline]; lia..|].
    cbn [sbB s_num s_data s_src s_dst s_next] in Hja. rewrite Ai in Hja.
    rewrite (step_idle_tx Hja (job_rcv_wait b h _ (at_time (S k)) Hr Bs Bt ltac:(cbn [rbB r_deadline]; unfold tp21_T1 in *; lia))) by discriminate.
    cbn [txs flat_map evs filter app]. split; [|rewrite (newtx_snoc _ _ [dtf sa G p k]) by reflexivity; reflexivity].
    change (tp21_dt sa G (dt_payload p (Z.of_nat k))) with (dtf sa G p k).
    rewrite (dtfs_snoc sa G p 0 k : dtfs 0 k ++ [dtf sa G p k] = _).
    apply shape_intro; [exact Ea|exact Eb|]. split; [exact Hk|]. split; [reflexivity|exact Hr].
  Qed.

  Lemma B3_fly k s : ShFly k s -> (if (S k =? np)%nat then brestored (step s) else ShWait (S k) (step s)) /\ newtx s (step s) = [].
  Proof.
    intros (a & b & ea & wb & -> & Ea & Eb & Hk & Hs & Hr). pose proof (hB_bdt b (at_time (S k)) _ k Eb Hr Hk) as Hh.
    destruct (Nat.eqb_spec (S k) np) as [E|NE].
    - destruct Hh as (b' & Hh & Eb' & Hr'). rewrite (step_b Hh), txs_deliveries, evs_deliveries.
      split; [|apply newtx_same; reflexivity]. rewrite (proj2 (Z.ltb_ge _ _)) in Hs by (unfold num; lia). rewrite E.
      pose proof (at_time_pos np). destruct Ea as (Ar & At & Ai). destruct Eb' as (Bs & Bt & Bsub & Bcas).
      unfold brestored. cbn [na nb qa qb clk evb wab]. repeat split; assumption || reflexivity.
    - rewrite (step_b Hh). cbn [txs flat_map evs filter app]. split; [|apply newtx_same; reflexivity].
      rewrite (proj2 (Z.ltb_lt _ _)) in Hs by (unfold num; lia).
      apply shape_intro; [exact Ea|exact Eb|]. split; [lia|]. split; [rewrite Nat2Z.inj_succ; exact Hs|reflexivity].
  Qed.

  Definition tail_log (k : nat) : list (Z * frame) := map (fun i => (at_time (S i), dtf sa G p i)) (seq k (np - k)).
  Notation treaches := (treaches steps tlog).

  Lemma wait_treaches : forall k s, ShWait k s -> treaches brestored s (tail_log k).
  Proof.
    apply (treaches_loop step (fun s => newtx s (step s)) steps tlog (fun _ => eq_refl) (fun _ _ => eq_refl)
             (fun _ => eq_refl) (fun _ _ => eq_refl) (fun k => (np - k)%nat)).
    intros k s H0. destruct (B1_wait k s H0) as (H1 & L1). destruct (B2_due k _ H1) as (H2 & L2). destruct (B3_fly k _ H2) as (H3 & L3).
    assert (Hk : (k < np)%nat) by (destruct H0 as (_ & _ & _ & _ & _ & _ & _ & Hk & _); exact Hk).
    assert (HL : tlog 3 s = [(at_time (S k), dtf sa G p k)]) by (cbn [tlog]; rewrite L1, L2, L3; reflexivity).
    assert (Ht : tail_log k = [(at_time (S k), dtf sa G p k)] ++ tail_log (S k))
      by (unfold tail_log; replace (np - k)%nat with (S (np - S k)) by lia; reflexivity).
    destruct (Nat.eqb_spec (S k) np) as [E|NE].
    - left. exists 3%nat. split; [exact H3|]. rewrite HL, Ht. unfold tail_log. rewrite E, Nat.sub_diag. reflexivity.
    - right. exists (S k), [(at_time (S k), dtf sa G p k)]. split; [lia|]. split; [exists 3%nat; split; [exact H3|exact HL]|exact Ht].
  Qed.

  Lemma start_is_bam : Sh0 (net_send (net0 A0 B0 t0) dp pf ps prio sa p).
  Proof.
    destruct HA as (As & Ar & At). destruct HB as (Bs & Br & Bt).
    unfold net_send, net0. cbn [na nb qa qb clk eva evb wab wba].
    rewrite (send_pgn_bam A0 t0 As). cbn [txs flat_map evs filter app].
    apply shape_intro; [repeat split; assumption|repeat split; assumption|]. split; [reflexivity|exact Br].
  Qed.

  Notation s0 := (net_send (net0 A0 B0 t0) dp pf ps prio sa p).
  Theorem bam_closed_loop :
    wab s0 = [bamf] /\ clk s0 = t0 /\
    exists j, brestored (steps j s0) /\ tlog j s0 = map (fun k => (at_time (S k), dtf sa G p k)) (seq 0 np).
  Proof.
    pose proof start_is_bam as H0. destruct (B0_bam _ H0) as (H1 & L0).
    split; [|split]; [destruct H0 as (a & b & ea & wb & -> & _); reflexivity..|].
    destruct (wait_treaches 0 _ H1) as (j & H & L). exists (S j). split; [exact H|].
    cbn [tlog]. rewrite L0, L. unfold tail_log. rewrite Nat.sub_0_r. reflexivity.
  Qed.

  Theorem bam_closed_loop_restores : reaches steps brestored s0.
  Proof. destruct bam_closed_loop as (_ & _ & j & H & _). exists j. exact H. Qed.

  (* C01_bam_closed_loop_delivers_pdu1_and_pdu2 in props/C01.v: what the above says of the delivery, the wire and the
     sessions alone *)
  Theorem bam_closed_loop_delivers_any : exists j, bam_delivered prio sa pv p B0 (steps j s0).
  Proof.
    destruct bam_closed_loop_restores as (j & (Q1 & Q2 & _ & Qe & Qw) & (A1 & A2 & _) & (B1 & B2 & _)).
    exists j. repeat split; assumption.
  Qed.

  (* T09.17 (props/C09.v): the same run with its times: consecutive packets of the broadcast are exactly the configured
     interval apart, and the first follows the announcement by one interval *)
  Theorem bam_closed_loop_paced_any : bam_paced prio sa pv p B0 t0 iv s0.
  Proof.
    destruct bam_closed_loop as (Hw & Hc & j & ((Q1 & Q2 & _ & Qe & _) & (A1 & _) & (_ & B2 & _)) & Hl).
    split; [exact Hw|]. split; [exact Hc|]. exists j. split; [repeat split; assumption|exact Hl].
  Qed.
End BamLoop.

(* the same for a PDU1 group sent to the global address, with its group number written out: T01.9 and T09.17 as props/C01.v
   and C09.v state them *)
Section Pdu1.
  Variables (prio sa dp pf : Z) (p : list Z) (t0 : Z) (A0 B0 : node).
  Hypothesis Hprio : 0 <= prio < 8.
  Hypothesis Hsa : 0 <= sa < 255.
  Hypothesis Hpf : 0 <= pf < 240.
  Hypothesis Hdp : 0 <= dp < 2.
  Hypothesis Hsize : 8 < len p <= 1785.
  Hypothesis Ht0 : 0 < t0.
  Hypothesis Hiv : 0 < n_bam_iv A0 < tp21_T1.
  Hypothesis HA : n_snd A0 = [] /\ n_rcv A0 = [] /\ n_timers A0 = [].
  Hypothesis HB : n_snd B0 = [] /\ n_rcv B0 = [] /\ n_timers B0 = [].
  Notation pv := (dp * 65536 + pf * 256).
  Notation s0 := (net_send (net0 A0 B0 t0) dp pf 255 prio sa p).

  Theorem bam_closed_loop_delivers : exists j, bam_delivered prio sa pv p B0 (steps j s0).
  Proof.
    rewrite <- (bam_pgn_pdu1 dp pf 255) by lia.
    exact (bam_closed_loop_delivers_any prio sa dp pf 255 p t0 A0 B0 Hprio Hsa (or_introl (conj Hpf eq_refl)) Hdp Hsize Ht0 Hiv HA HB).
  Qed.

  Theorem bam_closed_loop_paced : bam_paced prio sa pv p B0 t0 (n_bam_iv A0) s0.
  Proof.
    rewrite <- (bam_pgn_pdu1 dp pf 255) by lia.
    exact (bam_closed_loop_paced_any prio sa dp pf 255 p t0 A0 B0 Hprio Hsa (or_introl (conj Hpf eq_refl)) Hdp Hsize Ht0 Hiv HA HB).
  Qed.
End Pdu1.

Example bam_closed_loop_pdu2_instance :
  let A := init_node 3 None None in
  let B := subscribe (init_node 2 None None) 7 FNone in
  let p := map Z.of_nat (seq 1 20) in
  let s := steps 10 (net_send (net0 A B 1000) 0 254 202 6 128 p) in
  quiet s = true /\ evb s = [OCb 7 7 65226 128 p] /\ length (wab s) = 4%nat /\ wba s = [].
Proof. vm_compute. repeat split. Qed.

Example bam_closed_loop_instance :
  let A := init_node 3 None None in
  let B := subscribe (init_node 2 None None) 7 FNone in
  let p := map Z.of_nat (seq 1 20) in
  let s := steps 10 (net_send (net0 A B 1000) 0 239 255 6 128 p) in
  quiet s = true /\ evb s = [OCb 7 7 61184 128 p] /\ length (wab s) = 4%nat /\ wba s = [] /\ clk s = 1000 + 3 * 50000.
Proof. vm_compute. repeat split. Qed.

Example bam_closed_loop_times :
  let A := init_node 3 None None in
  let B := subscribe (init_node 2 None None) 7 FNone in
  let p := map Z.of_nat (seq 1 20) in
  map fst (tlog 10 (net_send (net0 A B 1000) 0 239 255 6 128 p)) = [51000; 101000; 151000].
Proof. vm_compute. reflexivity. Qed.
