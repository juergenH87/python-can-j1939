(* NetCommon.v — what the closed-loop proofs of both layers share: reaching a state by iterating a step function, with or
   without the record of what each step put on the wire; the outputs of a delivery split into frames and callbacks; the
   arithmetic of the responder's windows. *)
From J1939 Require Import Base CodecGlue Model21.
From J1939P Require Import Flat Net21.

Lemma txs_deliveries n prio pgn sa dest d : txs (deliveries n prio pgn sa dest d) = [].
Proof. unfold deliveries, deliveries_from. induction (filter _ _) as [|x r IH]; [reflexivity|exact IH]. Qed.
Lemma evs_deliveries n prio pgn sa dest d : evs (deliveries n prio pgn sa dest d) = deliveries n prio pgn sa dest d.
Proof. unfold deliveries, deliveries_from. induction (filter _ _) as [|x r IH]; [reflexivity|cbn [map evs filter]; f_equal; exact IH]. Qed.

(* ---------------------------------------------------------------- reaching a state
   [steps] and [log] are the iterators of the network at hand (Net21.steps / Net22.steps22, Net21Bam.tlog / Net22Bam.tlog22);
   their defining equations hold by [reflexivity].  [reaches Q s]: some number of steps from s ends in Q;
   [treaches Q s L]: and L is what those steps logged. *)
Section Reaches.
  Context {St E : Type} (step : St -> St) (emit : St -> list E) (steps : nat -> St -> St) (log : nat -> St -> list E).
  Hypothesis steps_O : forall s, steps O s = s.
  Hypothesis steps_S : forall k s, steps (S k) s = steps k (step s).
  Hypothesis log_O : forall s, log O s = [].
  Hypothesis log_S : forall k s, log (S k) s = emit s ++ log k (step s).

  Definition treaches (Q : St -> Prop) (s : St) (L : list E) : Prop := exists j, Q (steps j s) /\ log j s = L.
  Definition reaches (Q : St -> Prop) (s : St) : Prop := exists j, Q (steps j s).

  Lemma steps_add i : forall j s, steps (i + j) s = steps j (steps i s).
  Proof using steps_O steps_S.
    induction i as [|i IH]; intros j s; cbn [Nat.add]; [rewrite steps_O; reflexivity|rewrite !steps_S; apply IH].
  Qed.
  Lemma log_add i : forall j s, log (i + j) s = log i s ++ log j (steps i s).
  Proof using steps_O steps_S log_O log_S.
    induction i as [|i IH]; intros j s; cbn [Nat.add]; [rewrite log_O, steps_O; reflexivity|].
    rewrite !log_S, steps_S, IH, app_assoc. reflexivity.
  Qed.

  Lemma treaches_step Q s L : treaches Q (step s) L -> treaches Q s (emit s ++ L).
  Proof using steps_S log_S. intros (j & H & <-). exists (S j). rewrite steps_S, log_S. split; [exact H|reflexivity]. Qed.
  Lemma treaches_trans P Q s L1 L2 :
    treaches P s L1 -> (forall s', P s' -> treaches Q s' L2) -> treaches Q s (L1 ++ L2).
  Proof using steps_O steps_S log_O log_S.
    intros (i & Hp & <-) H. destruct (H _ Hp) as (j & Hq & <-). exists (i + j)%nat. rewrite steps_add, log_add. split; [exact Hq|reflexivity].
  Qed.
  Lemma treaches_loop {A} (m : A -> nat) (P : A -> St -> Prop) (L : A -> list E) Q :
    (forall a s, P a s -> treaches Q s (L a) \/
                          exists a' L1, (m a' < m a)%nat /\ treaches (P a') s L1 /\ L a = L1 ++ L a') ->
    forall a s, P a s -> treaches Q s (L a).
  Proof using steps_O steps_S log_O log_S.
    intros H a. induction a as [a IH] using (induction_ltof1 _ m). intros s Hp.
    destruct (H a s Hp) as [Hq|(a' & L1 & Hlt & Hr & ->)]; [exact Hq|].
    eapply treaches_trans; [exact Hr|]. intros s'. apply IH. exact Hlt.
  Qed.

  Lemma reaches_step Q s : reaches Q (step s) -> reaches Q s.
  Proof using steps_S. intros (j & H). exists (S j). rewrite steps_S. exact H. Qed.
  Lemma reaches_trans P Q s : reaches P s -> (forall s', P s' -> reaches Q s') -> reaches Q s.
  Proof using steps_O steps_S.
    intros (i & Hp) H. destruct (H _ Hp) as (j & Hq). exists (i + j)%nat. rewrite steps_add. exact Hq.
  Qed.
  Lemma reaches_loop {A} (m : A -> nat) (P : A -> St -> Prop) Q :
    (forall a s, P a s -> reaches Q s \/ exists a', (m a' < m a)%nat /\ reaches (P a') s) ->
    forall a s, P a s -> reaches Q s.
  Proof using steps_O steps_S.
    intros H a. induction a as [a IH] using (induction_ltof1 _ m). intros s Hp.
    destruct (H a s Hp) as [Hq|(a' & Hlt & Hr)]; [exact Hq|].
    eapply reaches_trans; [exact Hr|]. intros s'. apply IH. exact Hlt.
  Qed.
End Reaches.

(* ---------------------------------------------------------------- the responder's windows
   n packets, window g0: the window that starts after e packets (e a multiple of g0) holds [cnt e] packets and ends after
   [wend e]; packet k+1 is answered by a CTS exactly when it is the last of its window and not the last of all. *)
Section Windows.
  Variables g0 n : Z.
  Hypothesis Hg0 : 1 <= g0.

  Definition cnt (e : nat) : Z := Z.min g0 (n - Z.of_nat e).
  Definition wend (e : nat) : nat := Z.to_nat (Z.of_nat e + cnt e).
  Definition at_border (e : nat) : Prop := exists q, 0 <= q /\ Z.of_nat e = q * g0.

  Lemma at_border_0 : at_border 0.
  Proof using. exists 0. split; reflexivity. Qed.

  Lemma wend_facts e : Z.of_nat e < n ->
    1 <= cnt e <= g0 /\ Z.of_nat (wend e) = Z.of_nat e + cnt e /\ (e < wend e)%nat /\ Z.of_nat (wend e) <= n.
  Proof using Hg0. intros He. unfold wend, cnt. lia. Qed.

  Lemma window_cases e k : at_border e -> (e <= k < wend e)%nat -> Z.of_nat k + 1 < n ->
    if (S k =? wend e)%nat then (Z.of_nat k + 1) mod g0 = 0 /\ cnt e = g0 /\ at_border (S k)
    else (Z.of_nat k + 1) mod g0 <> 0.
  Proof using Hg0.
    intros (q & Hq & Eq) Hk Hn. assert (He : Z.of_nat e < n) by lia.
    destruct (wend_facts e He) as (Hc & Hw & _). unfold cnt in *.
    destruct (Nat.eqb_spec (S k) (wend e)) as [E|NE].
    - assert (Ek : Z.of_nat k + 1 = (q + 1) * g0) by lia. rewrite Ek, Z.mod_mul by lia.
      split; [reflexivity|]. split; [lia|]. exists (q + 1). split; lia.
    - rewrite <- (Z.mod_unique (Z.of_nat k + 1) g0 q (Z.of_nat k + 1 - q * g0)); lia.
  Qed.
End Windows.
