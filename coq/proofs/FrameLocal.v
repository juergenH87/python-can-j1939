(* FrameLocal.v — C01/C05 (J1939-21): transfers on different (source, destination) pairs do not interact.
   Every transport frame touches at most ONE session: the receive session keyed by (SA, DA) of the frame (RTS, BAM, DT)
   or the send session keyed by (DA, SA) (CTS, EndOfMsgACK, abort), whatever the frame contains.  With the role theorems
   (which describe one pair) this gives the concurrent case of C01: transfers on distinct pairs proceed as if each were
   alone, for every interleaving of their frames. *)
From J1939 Require Import Base CodecGlue Model21.
From J1939.gen Require Import Codec Tp21Gen CaGen.
From J1939P Require Import CodecProofs Flat Steps21.
Local Arguments Z.add : simpl never.
Local Arguments Z.sub : simpl never.
Local Arguments Z.mul : simpl never.

Definition touches_only (kr ks : option Z) (n n' : node) : Prop :=
  (forall h, Some h <> kr -> tget (n_rcv n') h = tget (n_rcv n) h) /\
  (forall h, Some h <> ks -> tget (n_snd n') h = tget (n_snd n) h).

Lemma touches_refl kr ks n : touches_only kr ks n n.
Proof. split; intros; reflexivity. Qed.

Lemma touches_trans kr ks n1 n2 n3 : touches_only kr ks n1 n2 -> touches_only kr ks n2 n3 -> touches_only kr ks n1 n3.
Proof. intros [A B] [C D]. split; intros h Hh; [rewrite C, A|rewrite D, B]; auto. Qed.

Lemma touches_wake kr ks n : touches_only kr ks n (wake n).
Proof. split; intros; reflexivity. Qed.

Lemma touches_rcv_table h ks n t :
  (forall h', h <> h' -> tget t h' = tget (n_rcv n) h') -> touches_only (Some h) ks n (set_rcv n t).
Proof. intros H. split; intros k Hk; [|reflexivity]. apply H. intros ->. apply Hk. reflexivity. Qed.
Lemma touches_set_rcv h b ks n : touches_only (Some h) ks n (set_rcv n (tset (n_rcv n) h b)).
Proof. apply touches_rcv_table. intros h'. apply tget_tset_other. Qed.
Lemma touches_del_rcv h ks n : touches_only (Some h) ks n (set_rcv n (tdel (n_rcv n) h)).
Proof. apply touches_rcv_table. intros h'. apply tget_tdel_other. Qed.
Lemma touches_set_snd h b kr n : touches_only kr (Some h) n (set_snd n (tset (n_snd n) h b)).
Proof.
  split; intros k Hk; cbn [n_rcv n_snd set_snd]; [reflexivity|].
  apply tget_tset_other. congruence.
Qed.

Definition ends (P : node -> Prop) (a : act node) : Prop := P (fnode a).
Lemma ends_done (P : node -> Prop) s r : P s -> ends P (Done s r). Proof. intros H; exact H. Qed.
Lemma ends_raise (P : node -> Prop) s e : P s -> ends P (Raise s e). Proof. intros H; exact H. Qed.
Lemma ends_emit (P : node -> Prop) s o k : ends P (k s) -> ends P (Emit s o k).
Proof. unfold ends, fnode. cbn [flat]. destruct (flat (k s)) as [[s' os] r]. auto. Qed.
Lemma ends_notify_subscribers (P : node -> Prop) prio pgn sa dest data n k : ends P (k n) -> ends P (notify_subscribers prio pgn sa dest data n k).
Proof. unfold ends, fnode. rewrite flat_notify_subscribers. destruct (flat (k n)) as [[s os] r]. auto. Qed.

Theorem tp_cm_touches_one prio sa dest data now n :
  ends (touches_only (Some (tp21_hash sa dest)) (Some (tp21_hash dest sa)) n) (process_tp_cm prio sa dest data now n).
Proof.
  unfold process_tp_cm.
  destruct (length data <? 8)%nat; [apply ends_raise, touches_refl|].
  destruct (_ =? tp21_cm_RTS).
  { destruct (tmem (n_rcv n) _); apply ends_emit, ends_done; [apply touches_refl|].
    eapply touches_trans; [apply touches_set_rcv|apply touches_wake]. }
  destruct (_ =? tp21_cm_CTS).
  { destruct (tget (n_snd n) _) as [b|]; [|apply ends_emit, ends_done, touches_refl].
    destruct (_ =? 0); apply ends_done; (eapply touches_trans; [apply touches_set_snd|apply touches_wake]). }
  destruct (_ =? tp21_cm_EOM_ACK).
  { destruct (negb (tmem (n_snd n) _)); [apply ends_emit, ends_done, touches_refl|].
    apply ends_notify_subscribers.
    destruct (tget (n_snd n) _) as [b|]; [|apply ends_raise, touches_refl].
    apply ends_done. eapply touches_trans; [apply touches_set_snd|apply touches_wake]. }
  destruct (_ =? tp21_cm_BAM).
  { apply ends_done.
    destruct (tmem (n_rcv n) _).
    - eapply touches_trans; [eapply touches_trans; [apply touches_del_rcv|apply touches_wake]|].
      eapply touches_trans; [apply touches_set_rcv|apply touches_wake].
    - eapply touches_trans; [apply touches_set_rcv|apply touches_wake]. }
  destruct (_ =? tp21_cm_ABORT).
  { destruct (tget (n_snd n) _) as [b|]; [|apply ends_done, touches_refl].
    destruct (_ =? ST_WAITING_CTS); apply ends_done; [apply touches_set_snd|apply touches_refl]. }
  apply ends_raise, touches_refl.
Qed.

Theorem tp_dt_touches_one prio sa dest data now n :
  ends (touches_only (Some (tp21_hash sa dest)) None n) (process_tp_dt prio sa dest data now n).
Proof.
  unfold ends. destruct (tp_dt_shape prio sa dest data now n) as (t & Ht & [-> | ->]).
  - apply touches_rcv_table, Ht.
  - eapply touches_trans; [apply touches_rcv_table, Ht|apply touches_wake].
Qed.

Lemma hash21_injective a b c d :
  0 <= a < 256 -> 0 <= b < 256 -> 0 <= c < 256 -> 0 <= d < 256 ->
  tp21_hash a b = tp21_hash c d -> a = c /\ b = d.
Proof.
  intros Ha Hb Hc Hd. unfold tp21_hash. rewrite !land_255, !shiftl_mul by lia. pow2_norm.
  rewrite (lor_add_low _ (b mod 256) 8), (lor_add_low _ (d mod 256) 8) by (pow2_norm; lia). lia.
Qed.

Lemma other_pair_key a b c d :
  0 <= a < 256 -> 0 <= b < 256 -> 0 <= c < 256 -> 0 <= d < 256 -> (a, b) <> (c, d) -> Some (tp21_hash a b) <> Some (tp21_hash c d).
Proof.
  intros Ha Hb Hc Hd Hne [= E]. apply hash21_injective in E; try assumption. destruct E as [-> ->]. apply Hne. reflexivity.
Qed.

(* T01.7: a transport frame of the pair (sa, dest) leaves the sessions of every other pair as they were *)
Corollary other_pairs_untouched_by_cm prio sa dest data now n sa' dest' :
  0 <= sa < 256 -> 0 <= dest < 256 -> 0 <= sa' < 256 -> 0 <= dest' < 256 ->
  (sa', dest') <> (sa, dest) ->
  tget (n_rcv (fnode (process_tp_cm prio sa dest data now n))) (tp21_hash sa' dest') = tget (n_rcv n) (tp21_hash sa' dest') /\
  tget (n_snd (fnode (process_tp_cm prio sa dest data now n))) (tp21_hash dest' sa') = tget (n_snd n) (tp21_hash dest' sa').
Proof.
  intros H1 H2 H3 H4 Hne. destruct (tp_cm_touches_one prio sa dest data now n) as [A B].
  split; [apply A|apply B]; apply other_pair_key; try assumption. intros [= -> ->]. apply Hne. reflexivity.
Qed.

Corollary other_pairs_untouched_by_dt prio sa dest data now n sa' dest' :
  0 <= sa < 256 -> 0 <= dest < 256 -> 0 <= sa' < 256 -> 0 <= dest' < 256 ->
  (sa', dest') <> (sa, dest) ->
  tget (n_rcv (fnode (process_tp_dt prio sa dest data now n))) (tp21_hash sa' dest') = tget (n_rcv n) (tp21_hash sa' dest') /\
  (forall h, tget (n_snd (fnode (process_tp_dt prio sa dest data now n))) h = tget (n_snd n) h).
Proof.
  intros H1 H2 H3 H4 Hne. destruct (tp_dt_touches_one prio sa dest data now n) as [A B]. split; [|intros h; apply B; discriminate].
  apply A, other_pair_key; assumption.
Qed.
