(* Net22Proofs.v — C02 end to end: in the closed loop of two FD model nodes (Net22.v) an RTS/CTS transfer of any payload
   delivers exactly that payload, once; afterwards nothing is queued, no session is left and the session number is back. *)
From J1939 Require Import Base CodecGlue Model21 Model22.
From J1939.gen Require Import Codec Tp21Gen CaGen Tp22Gen.
From J1939P Require Import CodecProofs Flat MpgProofs PoolProofs Tp21Seg Tp21Resp Tp21Orig Steps22 Tp22Proofs Tp22Resp TimeoutProofs22 Net22Jobs Net21 NetCommon Net22.
Local Arguments Z.add : simpl never.
Local Arguments Z.sub : simpl never.
Local Arguments Z.mul : simpl never.

Lemma cm22_fields src dst ctl s size nseg b7 b8 pgn prio :
  0 <= ctl < 16 -> 0 <= s < 16 -> 0 <= size < 16777216 -> 0 <= nseg < 16777216 -> 0 <= b7 < 256 -> 0 <= b8 < 256 ->
  0 <= pgn < 16777216 ->
  let d := f_data (tp22_cm src dst ctl s size nseg b7 b8 pgn prio) in
  length d = 12%nat /\ tp22_cm_control_byte d = ctl /\ tp22_cm_session_num d = s /\ tp22_cm_message_size d = size /\
  tp22_cm_segment_num d = nseg /\ byte_at d 7 = b7 /\ byte_at d 8 = b8 /\ tp22_cm_pgn d = pgn.
Proof.
  intros Hc Hs Hz Hn H7 H8 Hp. cbn [tp22_cm f_data].
  unfold tp22_cm_control_byte, tp22_cm_session_num, tp22_cm_message_size, tp22_cm_segment_num, tp22_cm_pgn, byte_at.
  cbn [nth length].
  rewrite nibbles_join, nibbles_low, nibbles_high by assumption.
  rewrite !land_255, !shiftr_div by lia. pow2_norm. rewrite !Z.mod_mod by lia.
  repeat split; try reflexivity; try (apply le24; assumption); apply Z.mod_small; assumption.
Qed.

(* ---------------------------------------------------------------- dispatch of FD.TP frames *)
Lemma notify22_pdu1 m now prio pf dest sa data :
  0 <= prio < 8 -> 0 <= pf < 240 -> 0 <= dest < 256 -> 0 <= sa < 256 ->
  notify22 m now (mid_can_id_of prio (pgn_value_of 0 pf dest) sa) data =
  let pv := pf * 256 in
  if negb (accepts (base m) dest) then Done m 0
  else if pv =? pgn_FEFF_MULTI_PG then process_multi_pg 70 prio sa dest data m
  else if pv =? pgn_ADDRESSCLAIM then claim_fanout22 0 (length (n_cas (base m))) sa data m
  else if pv =? pgn_REQUEST then
    lift m (request_fanout 0 (length (n_cas (base m))) sa dest data (base m) (fun n' => Done n' 0)) (fun m' r => Done m' r)
  else if pv =? pgn_FD_TP_CM then process_tp_cm22 prio sa dest data now m
  else if pv =? pgn_FD_TP_DT then process_tp_dt22 prio sa dest data now m
  else if (pv =? pgn_TP_CM) || (pv =? pgn_DATATRANSFER) then Done m 0
  else notify_subscribers22 prio pv sa dest data m (fun m' => Done m' 0).
Proof.
  intros Hp Hf Hd Hs. unfold notify22.
  destruct (pdu1_id_fields prio pf dest sa Hp Hf Hd Hs) as (E1 & E2 & E3).
  rewrite E1, E2, E3.
  assert (Hv : Z.land (pgn_value 0 pf dest) 130816 = pf * 256).
  { rewrite pgn_value_arith by lia.
    change 130816 with (Z.ones 9 * 2 ^ 8). rewrite land_high_mask by lia. pow2_norm. lia. }
  rewrite Hv. unfold accepts. cbn [negb andb].
  destruct (dest =? addr_GLOBAL); [reflexivity|]. destruct (ecu_acceptable (base m) dest); [reflexivity|].
  destruct (existsb _ _); reflexivity.
Qed.

Lemma deaf22 m t f prio dst src pf : accepts (base m) dst = false ->
  0 <= prio < 8 -> 0 <= pf < 240 -> 0 <= dst < 256 -> 0 <= src < 256 ->
  f_id f = mid_can_id_of prio (pgn_value_of 0 pf dst) src -> handle22 m t f = (m, []).
Proof. intros Hacc H1 H2 H3 H4 Hid. unfold handle22. rewrite Hid, notify22_pdu1, Hacc by assumption. reflexivity. Qed.

(* ---------------------------------------------------------------- the 60-byte segments of a payload *)
Definition row (p : list Z) (k : nat) : list Z := firstn 60 (skipn (60 * k) p).

Lemma skipn_add {A} : forall a b (l : list A), skipn a (skipn b l) = skipn (b + a) l.
Proof.
  intros a b. revert a. induction b as [|b IH]; intros a l; [reflexivity|].
  destruct l as [|x r]; cbn [skipn Nat.add]; [destruct a; reflexivity|apply IH].
Qed.

Lemma nth_chunks : forall k fuel d, (k < fuel)%nat -> (60 * k <= length d)%nat ->
  nth_error (chunks fuel d) k = Some (row d k).
Proof.
  induction k as [|k IH]; intros fuel d Hf Hl; (destruct fuel as [|f]; [lia|]); cbn [chunks].
  - unfold row. replace (60 * 0)%nat with 0%nat by lia. cbn [skipn]. destruct (Nat.ltb_spec (length d) 60) as [L|L]; cbn [nth_error].
    + rewrite firstn_all2 by lia. reflexivity.
    + reflexivity.
  - destruct (Nat.ltb_spec (length d) 60) as [L|L]; [lia|]. cbn [nth_error].
    rewrite IH by (rewrite ?skipn_length; lia). unfold row. rewrite skipn_add.
    replace (60 + 60 * k)%nat with (60 * S k)%nat by lia. reflexivity.
Qed.

Lemma nth_segments p k : (60 * k <= length p)%nat -> nth_error (segments p) k = Some (row p k).
Proof.
  intros H. unfold segments. apply nth_chunks; [|exact H].
  apply Nat.div_le_lower_bound in H; lia.
Qed.

Lemma firstn_row p k : (60 * S k <= length p)%nat -> firstn (60 * k) p ++ row p k = firstn (60 * S k) p.
Proof.
  intros H. unfold row. rewrite <- (firstn_skipn (60 * k) (firstn (60 * S k) p)).
  rewrite firstn_firstn. replace (Nat.min (60 * k) (60 * S k)) with (60 * k)%nat by lia. f_equal.
  rewrite skipn_firstn_comm. replace (60 * S k - 60 * k)%nat with 60%nat by lia. reflexivity.
Qed.
Lemma row_len_full p k : (60 * S k <= length p)%nat -> length (row p k) = 60%nat.
Proof. intros H. unfold row. rewrite firstn_length, skipn_length. lia. Qed.
Lemma firstn_len_app (a b : list Z) : firstn (Z.to_nat (len a)) (a ++ b) = a.
Proof. unfold len. rewrite Nat2Z.id. apply firstn_app_pad. Qed.
Lemma len_app_le (a b : list Z) : len a <= len (a ++ b).
Proof. unfold len. rewrite app_length. lia. Qed.
Lemma row_len_le p k : (length (row p k) <= 60)%nat.
Proof. unfold row. rewrite firstn_length. lia. Qed.
Lemma row_last p k : (60 * k <= length p)%nat -> (length p <= 60 * S k)%nat -> firstn (60 * k) p ++ row p k = p.
Proof.
  intros H1 H2. unfold row. rewrite (firstn_all2 (skipn (60 * k) p)) by (rewrite skipn_length; lia).
  apply firstn_skipn.
Qed.

(* the frame of row k as the model's own builder makes it: header, row, and padding after the last row only.  The second
   conjunct: [dtf22] and the closed statement name the frame by a match with a fallback, which is never taken *)
Lemma row_frame sa dest p k fallback :
  exists fr seg' pad, dt_frame sa dest 0 (Z.of_nat k + 1) (row p k) = Some (fr, seg') /\
    match dt_frame sa dest 0 (Z.of_nat k + 1) (row p k) with Some (fr, _) => fr | None => fallback end = fr /\
    f_id fr = tp22_dt_id sa dest /\ f_data fr = tp22_dt_header 0 (Z.of_nat k + 1) 0 ++ row p k ++ pad /\
    ((60 * S k <= length p)%nat -> pad = []).
Proof.
  destruct (dt_frame_some sa dest 0 (Z.of_nat k + 1) (row p k) (row_len_le p k)) as (fr & seg' & pad & E & Hid & Hd & Hfull).
  exists fr, seg', pad. rewrite E. repeat split; try assumption. intros H. apply Hfull, row_len_full, H.
Qed.

Lemma handle22_cm m t src dst ctl s size nseg b7 b8 pgn prio :
  0 <= prio < 8 -> 0 <= dst < 256 -> 0 <= src < 256 -> accepts (base m) dst = true ->
  handle22 m t (tp22_cm src dst ctl s size nseg b7 b8 pgn prio) =
  let '(m', os, _) := flat22 (process_tp_cm22 prio src dst (f_data (tp22_cm src dst ctl s size nseg b7 b8 pgn prio)) t m) in (m', os).
Proof.
  intros Hp Hd Hs Hacc. unfold handle22.
  change (f_id (tp22_cm src dst ctl s size nseg b7 b8 pgn prio)) with (mid_can_id_of prio (pgn_value_of 0 77 dst) src).
  rewrite notify22_pdu1, Hacc by lia. reflexivity.
Qed.
Lemma handle22_dt m t f sa dest :
  0 <= dest < 256 -> 0 <= sa < 256 -> accepts (base m) dest = true -> f_id f = tp22_dt_id sa dest ->
  handle22 m t f = let '(m', os, _) := flat22 (process_tp_dt22 7 sa dest (f_data f) t m) in (m', os).
Proof.
  intros Hd Hs Hacc Hid. unfold handle22. rewrite Hid.
  change (tp22_dt_id sa dest) with (mid_can_id_of 7 (pgn_value_of 0 78 dest) sa).
  rewrite notify22_pdu1, Hacc by lia. reflexivity.
Qed.

Lemma py_nth_nat {A} (l : list A) (j : nat) : py_nth l (Z.of_nat j) = nth_error l j.
Proof. unfold py_nth. rewrite !(proj2 (Z.ltb_ge _ _) (Nat2Z.is_nonneg j)), Nat2Z.id. reflexivity. Qed.
Lemma py_set_nat {A} (l : list A) (j : nat) x : py_set l (Z.of_nat j) x = upd_nth l j x.
Proof. unfold py_set. rewrite !(proj2 (Z.ltb_ge _ _) (Nat2Z.is_nonneg j)), Nat2Z.id. reflexivity. Qed.

(* ---------------------------------------------------------------- the step function, case by case *)
Lemma step22_b s f r : pb s = f :: r ->
  step22 s = let '(m', os) := handle22 (fb s) (fclk s) f in
             {| fa := fa s; fb := m'; pa := pa s ++ txs os; pb := r; fclk := fclk s;
                eva2 := eva2 s; evb2 := evb2 s ++ evs os; wab2 := wab2 s; wba2 := wba2 s ++ txs os |}.
Proof. intros H. unfold step22. rewrite H. reflexivity. Qed.
Lemma step22_a s f r : pb s = [] -> pa s = f :: r ->
  step22 s = let '(m', os) := handle22 (fa s) (fclk s) f in
             {| fa := m'; fb := fb s; pa := r; pb := txs os; fclk := fclk s;
                eva2 := eva2 s ++ evs os; evb2 := evb2 s; wab2 := wab2 s ++ txs os; wba2 := wba2 s |}.
Proof. intros H1 H2. unfold step22. rewrite H1, H2. reflexivity. Qed.
Lemma step22_idle s : pb s = [] -> pa s = [] ->
  step22 s = let '(a', oa, ra) := flat22 (job_iter22 (fa s) (fclk s)) in
             let '(b', ob, rb) := flat22 (job_iter22 (fb s) (fclk s)) in
             let quiet := match txs oa, txs ob with [], [] => true | _, _ => false end in
             let dt := if quiet && (n_wakes (base a') =? n_wakes (base (fa s))) && (n_wakes (base b') =? n_wakes (base (fb s)))
                       then Z.max 0 (Z.min (sleep_of ra) (sleep_of rb)) else 0 in
             {| fa := a'; fb := b'; pa := txs ob; pb := txs oa; fclk := fclk s + dt;
                eva2 := eva2 s ++ evs oa; evb2 := evb2 s ++ evs ob; wab2 := wab2 s ++ txs oa; wba2 := wba2 s ++ txs ob |}.
Proof. intros H1 H2. unfold step22. rewrite H1, H2. reflexivity. Qed.

Lemma step22_sends s a' oa ra b' ob rb : pb s = [] -> pa s = [] ->
  flat22 (job_iter22 (fa s) (fclk s)) = (a', oa, ra) -> flat22 (job_iter22 (fb s) (fclk s)) = (b', ob, rb) -> txs oa <> [] ->
  step22 s = {| fa := a'; fb := b'; pa := txs ob; pb := txs oa; fclk := fclk s;
                eva2 := eva2 s ++ evs oa; evb2 := evb2 s ++ evs ob; wab2 := wab2 s ++ txs oa; wba2 := wba2 s ++ txs ob |}.
Proof.
  intros H1 H2 Ha Hb Hne. rewrite step22_idle by assumption. rewrite Ha, Hb.
  destruct (txs oa); [contradiction|]. cbn [andb]. rewrite Z.add_0_r. reflexivity.
Qed.

Lemma txs_map_OTx l : txs (map OTx l) = l.
Proof. induction l as [|x r IH]; [reflexivity|]. cbn [map txs flat_map app]. f_equal. exact IH. Qed.
Lemma evs_map_OTx l : evs (map OTx l) = [].
Proof. induction l as [|x r IH]; [reflexivity|]. cbn [map evs filter]. exact IH. Qed.
Lemma txs_app a b : txs (a ++ b) = txs a ++ txs b.
Proof. unfold txs. apply flat_map_app. Qed.
Lemma evs_app a b : evs (a ++ b) = evs a ++ evs b.
Proof. unfold evs. apply filter_app. Qed.

(* the shapes a network goes through in a closed loop: the time, the queues, what B's application has got and what A has put
   on the wire are as given; A's callbacks and B's wire are not followed; the nodes are in their environments EA, EB and
   satisfy P *)
Definition shape22 (EA EB : node22 -> Prop) (c : Z) (x y : list frame) (eb : list out) (w : list frame)
  (P : node22 -> node22 -> Prop) (s : net22) : Prop :=
  exists a b ea wb, s = {| fa := a; fb := b; pa := x; pb := y; fclk := c; eva2 := ea; evb2 := eb; wab2 := w; wba2 := wb |} /\
                    EA a /\ EB b /\ P a b.
Lemma shape22_intro (EA EB : node22 -> Prop) c x y eb w (P : node22 -> node22 -> Prop) a b ea wb : EA a -> EB b -> P a b ->
  shape22 EA EB c x y eb w P {| fa := a; fb := b; pa := x; pb := y; fclk := c; eva2 := ea; evb2 := eb; wab2 := w; wba2 := wb |}.
Proof. intros Ea Eb HP. exists a, b, ea, wb. split; [reflexivity|]. split; [exact Ea|]. split; [exact Eb|exact HP]. Qed.

Section Loop22.
  Variables (prio sa dest dp pf : Z) (p : list Z) (t0 : Z) (A0 B0 : node22).
  Hypothesis Hprio : 0 <= prio < 8.
  Hypothesis Hsa : 0 <= sa < 255.
  Hypothesis Hdest : 0 <= dest < 255.
  Hypothesis Hpf : 0 <= pf < 240.
  Hypothesis Hdp : 0 <= dp < 2.
  Hypothesis Hsize : 60 < len p < 16777216.
  Hypothesis Ht0 : 0 < t0.
  Let pv := dp * 65536 + pf * 256.
  Let ns := ((length p + 59) / 60)%nat.            (* number of segments *)
  Let nseg := Z.of_nat ns.
  Let h := tp22_hash 0 sa dest.
  Let limit := Z.min (n_maxp (base A0)) nseg.
  Let g0 := Z.min (n_maxp (base B0)) (Z.min limit nseg).
  Hypothesis HA : f_snd A0 = [] /\ f_rcv A0 = [] /\ f_mpg A0 = [] /\ n_timers (base A0) = [] /\ n_cmdt_iv (base A0) = None /\
                  accepts (base A0) sa = true /\ 1 <= n_maxp (base A0) < 256 /\ f_rts A0 = repeat true tp22_pool_rts.
  Hypothesis HB : f_snd B0 = [] /\ f_rcv B0 = [] /\ f_mpg B0 = [] /\ n_timers (base B0) = [] /\
                  accepts (base B0) dest = true /\ 1 <= n_maxp (base B0).

  Lemma A0_accepts : accepts (base A0) sa = true.
  Proof. destruct HA as (_ & _ & _ & _ & _ & H & _). exact H. Qed.
  Lemma A0_maxp : 1 <= n_maxp (base A0) < 256.
  Proof. destruct HA as (_ & _ & _ & _ & _ & _ & H & _). exact H. Qed.
  Lemma B0_accepts : accepts (base B0) dest = true.
  Proof. destruct HB as (_ & _ & _ & _ & H & _). exact H. Qed.
  Lemma B0_maxp : 1 <= n_maxp (base B0).
  Proof. destruct HB as (_ & _ & _ & _ & _ & H). exact H. Qed.

  (* facts about p alone, which the other FD loops use as well.  TRAP: [clear] before [lia].  lia takes every hypothesis in
     sight into its proof term; the lemma would then depend on the section context and come out of the section with those
     hypotheses as arguments *)
  Lemma nseg_model : len p / tp22_TP + (if len p mod tp22_TP =? 0 then 0 else 1) = nseg.
  Proof.
    unfold nseg, ns, tp22_TP, len. clear. rewrite Nat2Z.inj_div. destruct (Z.eqb_spec (Z.of_nat (length p) mod 60) 0); lia.
  Qed.
  Lemma ns_range : (2 <= ns)%nat /\ (60 * (ns - 1) < length p <= 60 * ns)%nat.
  Proof using Hsize. unfold ns. clear - Hsize. unfold len in Hsize. split; [|split]; lia. Qed.
  Lemma nseg_range : 2 <= nseg < 16777216.
  Proof using Hsize. pose proof ns_range as H. unfold nseg. clear - H Hsize. unfold len in Hsize. lia. Qed.
  Lemma pv22_range : 0 <= pv < 262144.
  Proof. unfold pv. lia. Qed.
  Lemma dest_p2p : (dest =? addr_GLOBAL) = false.
  Proof. apply Z.eqb_neq. unfold addr_GLOBAL. lia. Qed.
  Lemma g0_range22 : 1 <= g0 <= nseg /\ g0 < 256.
  Proof. pose proof nseg_range. pose proof A0_maxp. pose proof B0_maxp. unfold g0, limit. lia. Qed.

  (* where row k lies in p: the last row ends the payload, every other row is full ([clear] as above) *)
  Lemma row_nonempty k : (k < ns)%nat -> (1 <= length (row p k))%nat.
  Proof using Hsize. intros Hk. pose proof ns_range as Hr. clear - Hk Hr. unfold row. rewrite firstn_length, skipn_length. lia. Qed.
  Lemma row_place k : (k < ns)%nat ->
    if (S k =? ns)%nat then firstn (60 * k) p ++ row p k = p /\ Z.of_nat k + 1 = nseg
    else (S k < ns)%nat /\ firstn (60 * k) p ++ row p k = firstn (60 * S k) p /\
         Z.of_nat k + 1 < nseg /\ len (firstn (60 * S k) p) < len p.
  Proof using Hsize.
    intros Hk. pose proof ns_range as Hr. clear - Hk Hr. destruct (Nat.eqb_spec (S k) ns) as [E|E].
    - split; [apply row_last; lia|unfold nseg; lia].
    - assert (Hfull : (60 * S k < length p)%nat) by lia. split; [lia|]. split; [apply firstn_row; lia|].
      unfold nseg, len. rewrite firstn_length. lia.
  Qed.

  Definition sb22 (st dl nx : Z) (w : option Z) (d : list (list Z)) : sbuf22 :=
    {| t_pgn := pv; t_prio := prio; t_session := 0; t_size := len p; t_nseg := nseg; t_data := d; t_state := st;
       t_deadline := dl; t_src := sa; t_dst := dest; t_next := nx; t_waitcts := w; t_nb := 0 |}.
  Definition rts22 : frame := tp22_rts prio sa dest 0 pv (len p) nseg limit.
  Definition pool1 : list bool := false :: repeat true 7.

  Lemma send_pgn22_rts a now : f_snd a = [] -> f_rts a = repeat true tp22_pool_rts -> n_maxp (base a) = n_maxp (base A0) ->
    flat22 (send_pgn22 a now dp pf dest prio sa p 0 ff_FEFF) =
    (wake22 (set_fsnd (set_frts a pool1) [(h, sb22 tp22_st_WAITING_CTS (now + tp22_T3) 0 (Some 0) (segments p))]),
     [OTx rts22], RDone 1).
  Proof using Hdest Hpf Hdp Hsize B0.
    intros Hs Hr Hm. rewrite send_pgn22_long by (unfold tp22_TP; lia). cbv zeta.
    rewrite dest_p2p, pgn_is_pdu2_of_leb, (proj2 (Z.leb_gt 240 pf)) by lia.
    cbn [orb]. rewrite Hr. cbn [tp22_pool_rts repeat pool_get]. rewrite nseg_model.
    rewrite pgn_value_arith by lia. replace (dp * 65536 + pf * 256 + 0) with pv by (unfold pv; lia).
    cbn [flat22 f_snd set_frts]. rewrite Hs. cbn [tset base set_fsnd set_frts]. rewrite Hm. reflexivity.
  Qed.

  (* ---- the data frames: the frame A sends for row k (0-based), as the model's own builder makes it ([row_frame]: never the
     fallback) *)
  Definition dtf22 (k : nat) : frame :=
    match dt_frame sa dest 0 (Z.of_nat k + 1) (row p k) with Some (fr, _) => fr | None => rts22 end.
  Definition dtfs22 (k m : nat) : list frame := map dtf22 (seq k m).

  Lemma dtf22_frame k : exists seg' pad,
    dt_frame sa dest 0 (Z.of_nat k + 1) (row p k) = Some (dtf22 k, seg') /\ f_id (dtf22 k) = tp22_dt_id sa dest /\
                     f_data (dtf22 k) = tp22_dt_header 0 (Z.of_nat k + 1) 0 ++ row p k ++ pad /\ ((S k < ns)%nat -> pad = []).
  Proof.
    pose proof ns_range as Hr. destruct (row_frame sa dest p k rts22) as (fr & seg' & pad & E & <- & Hid & Hd & Hpad).
    exists seg', pad. repeat split; try assumption. intros Hlt. apply Hpad. lia.
  Qed.
  Lemma dtf22_wire k fallback :
    dtf22 k = match dt_frame sa dest 0 (Z.of_nat k + 1) (row p k) with Some (fr, _) => fr | None => fallback end.
  Proof.
    unfold dtf22. destruct (row_frame sa dest p k fallback) as (fr & _ & _ & -> & _). reflexivity.
  Qed.
  Lemma dtfs22_cons k m : dtfs22 k (S m) = dtf22 k :: dtfs22 (S k) m.
  Proof. reflexivity. Qed.
  Lemma dtfs22_upto e w : (e <= w)%nat -> dtfs22 0 e ++ dtfs22 e (w - e) = dtfs22 0 w.
  Proof. intros H. unfold dtfs22. rewrite <- map_app. change (seq e (w - e)) with (seq (0 + e) (w - e)). rewrite <- seq_app. f_equal. f_equal. lia. Qed.

  (* ---- the responder B *)
  Definition envB22 (b : node22) : Prop :=
    f_snd b = [] /\ f_mpg b = [] /\ n_timers (base b) = [] /\ n_subs (base b) = n_subs (base B0) /\ n_cas (base b) = n_cas (base B0) /\
    n_maxp (base b) = n_maxp (base B0) /\ f_rts b = f_rts B0 /\ f_bam b = f_bam B0.
  (* envB22 reads only fields that a new receive table and a wake-up leave alone *)
  Lemma envB22_rcv b l : envB22 b -> envB22 (set_frcv b l).
  Proof. exact (fun E => E). Qed.
  Lemma envB22_wake b : envB22 b -> envB22 (wake22 b).
  Proof. exact (fun E => E). Qed.
  Lemma acceptsB22 b : envB22 b -> accepts (base b) dest = true.
  Proof. intros (_ & _ & _ & Es & Ec & _). rewrite (accepts_env (base B0) (base b) dest Es Ec). exact B0_accepts. Qed.
  Lemma maxpB22 b : envB22 b -> n_maxp (base b) = n_maxp (base B0).
  Proof. intros (_ & _ & _ & _ & _ & Em & _). exact Em. Qed.

  Definition rb22 (dl nx : Z) (border : option Z) (d : list Z) : rbuf22 :=
    {| q_pgn := pv; q_session := 0; q_size := len p; q_nseg := nseg; q_next := nx; q_border := border; q_maxrec := Some g0;
       q_data := d; q_deadline := dl; q_src := sa; q_dst := dest |}.
  Definition cts22 (c nxt : Z) : frame := tp22_cts dest sa 0 c nxt pv.

  Lemma hB22_rts b : envB22 b -> f_rcv b = [] ->
    handle22 b t0 rts22 = (wake22 (set_frcv b [(h, rb22 (t0 + tp22_T2) 1 (Some g0) [])]), [OTx (cts22 g0 1)]).
  Proof.
    intros Eb Hr. pose proof nseg_range as Hn. pose proof pv22_range as Hpv. pose proof g0_range22 as Hg. pose proof A0_maxp as Ha.
    unfold rts22, tp22_rts. rewrite handle22_cm by (try apply acceptsB22; assumption || lia).
    destruct (cm22_fields sa dest 0 0 (len p) nseg limit 0 pv prio) as (L & C & S & Z1 & N & B7 & _ & P);
      try (unfold limit; lia).
    rewrite responder22_rts_opens; [|split; [rewrite L; apply le_n|exact C]|rewrite S, Hr; reflexivity].
    rewrite S, Z1, N, B7, P, Hr, (maxpB22 b Eb). reflexivity.
  Qed.

  Definition inv22 (k : nat) (b : rbuf22) : Prop :=
    exists dl, b = rb22 dl (Z.of_nat k + 1) (Some (Z.min ((Z.of_nat k / g0 + 1) * g0) nseg)) (firstn (60 * k) p).

  Definition eoms22 : frame := tp22_eom_status sa dest 0 (len p) nseg pv.

  Definition answer22 (k : nat) : list out :=
    if Z.of_nat k + 1 =? nseg then []
    else if (Z.of_nat k + 1) mod g0 =? 0 then [OTx (cts22 (Z.min g0 (nseg - (Z.of_nat k + 1))) (Z.of_nat k + 2))]
    else [].

  Lemma hB22_dt b rb (k : nat) : envB22 b -> f_rcv b = [(h, rb)] -> inv22 k rb -> (k < ns)%nat ->
    exists b' rb', handle22 b t0 (dtf22 k) = (b', answer22 k) /\ envB22 b' /\ f_rcv b' = [(h, rb')] /\
                   t0 < q_deadline rb' /\
                   (if (S k =? ns)%nat then exists dl, rb' = rb22 dl (nseg + 1) (q_border rb) p else inv22 (S k) rb').
  Proof using Hsa Hdest Hsize HA HB.
    intros Eb Hr Hinv Hk. pose proof g0_range22 as (Hg & _). pose proof nseg_range as Hn.
    destruct (dtf22_frame k) as (_ & pad & _ & Hid & Hdata & Hpad).
    rewrite (handle22_dt b t0 (dtf22 k) sa dest) by (try apply acceptsB22; assumption || lia). rewrite Hdata.
    unfold answer22. set (kz := Z.of_nat k) in *.
    (* the frame passes the guards of the handler; the linear arithmetic is done here, before inv22 brings its quotient *)
    assert (Hkz : 0 <= kz < nseg) by (unfold kz, nseg; lia).
    assert (Hg0 : 0 < g0) by lia. assert (Hk0 : kz + 1 <> 0) by lia.
    assert (Hlen : (4 < length (tp22_dt_header 0 (kz + 1) 0 ++ row p k ++ pad))%nat).
    { pose proof (row_nonempty k Hk). rewrite !app_length. cbn [tp22_dt_header length]. lia. }
    destruct (dt_hdr_fields 0 (kz + 1) (row p k ++ pad)) as (Es & En); [lia|lia|].
    pose proof (row_place k Hk) as Hrows. fold kz in Hrows.
    destruct Hinv as (dl & ->). fold kz in Hr. set (bd := Z.min ((kz / g0 + 1) * g0) nseg) in Hr.
    assert (Hget : tget (f_rcv b) (tp22_hash 0 sa dest) = Some _) by (rewrite Hr; apply tget_single).
    rewrite (dt22_step 7 sa dest t0 0 (kz + 1) _ b _ Hlen Es En Hk0 Hget eq_refl), dest_p2p.
    change (skipn 4 (tp22_dt_header 0 (kz + 1) 0 ++ row p k ++ pad)) with (row p k ++ pad).
    cbn [rb22 q_size q_data q_border q_maxrec q_nseg q_pgn]. rewrite Hr, !tset_single.
    destruct (S k =? ns)%nat.
    - (* the last row: the payload is complete *)
      destruct Hrows as (Hp & Hkn). rewrite app_assoc, Hp, (proj2 (Z.leb_le _ _) (len_app_le p pad)), firstn_len_app.
      rewrite (proj2 (Z.eqb_eq _ _) Hkn).
      eexists _, _. split; [reflexivity|]. split; [apply envB22_wake, envB22_rcv, Eb|]. split; [reflexivity|].
      split; [apply Z.lt_add_pos_r; reflexivity|]. exists (t0 + tp22_T1). rewrite Hkn. reflexivity.
    - destruct Hrows as (Hin & Hd & Hkn & Hpart). rewrite (Hpad Hin), app_nil_r, Hd, (proj2 (Z.leb_gt _ _) Hpart).
      rewrite (proj2 (Z.eqb_neq _ _) (Z.lt_neq _ _ Hkn)).
      assert (Einv : forall dl', inv22 (S k) (rb22 dl' (kz + 1 + 1) (Some (Z.min (((kz + 1) / g0 + 1) * g0) nseg)) (firstn (60 * S k) p))).
      { intros dl'. exists dl'. rewrite Nat2Z.inj_succ, <- Z.add_1_r. reflexivity. }
      destruct (Z.eqb_spec ((kz + 1) mod g0) 0) as [Hmod|Hmod].
      + (* the last row of its window: the next CTS *)
        destruct (border_next g0 kz nseg Hg0 (proj1 Hkz) Hkn Hmod) as (Hbd & Hnx). fold bd in Hbd.
        rewrite Hbd, Z.leb_refl, <- Hnx.
        eexists _, _. split; [replace (kz + 2) with (kz + 1 + 1) by ring; reflexivity|].
        split; [apply envB22_wake, envB22_rcv, Eb|]. split; [reflexivity|].
        split; [apply Z.lt_add_pos_r; reflexivity|exact (Einv (t0 + tp22_T2))].
      + destruct (border_stay g0 kz nseg Hg0 (proj1 Hkz) Hkn Hmod) as (Hbd & Hq). fold bd in Hbd.
        rewrite (proj2 (Z.leb_gt _ _) Hbd). unfold bd. rewrite <- Hq.
        eexists _, _. split; [reflexivity|]. split; [apply envB22_rcv, Eb|]. split; [reflexivity|].
        split; [apply Z.lt_add_pos_r; reflexivity|exact (Einv (t0 + tp22_T1))].
  Qed.

  Definition eoma22 : frame := tp22_eom_ack dest sa 0 (len p) nseg pv.
  Definition delivered22 : list out := deliveries (base B0) 7 pv sa dest p.

  Lemma hB22_eoms b dl border : envB22 b -> f_rcv b = [(h, rb22 dl (nseg + 1) border p)] ->
    handle22 b t0 eoms22 = (set_frcv b [], delivered22 ++ [OTx eoma22]).
  Proof.
    intros Eb Hr. pose proof nseg_range as Hn. pose proof pv22_range as Hpv.
    unfold eoms22, tp22_eom_status. rewrite handle22_cm by (try apply acceptsB22; assumption || lia).
    destruct (cm22_fields sa dest 2 0 (len p) nseg 0 0 pv 7) as (L & C & S & Z1 & N & _); try lia.
    rewrite (eom_status_flat 7 sa dest _ t0 b (rb22 dl (nseg + 1) border p));
      [|split; [rewrite L; apply le_n|exact C]|rewrite S, Hr; apply tget_single].
    rewrite S, Z1, N, Hr, tdel_single. cbn [rb22 q_size q_nseg q_data q_pgn]. rewrite !Z.eqb_refl, dest_p2p.
    destruct Eb as (_ & _ & _ & Es & Ec & _).
    unfold delivered22. rewrite (deliveries_env (base B0) (base b)) by assumption. reflexivity.
  Qed.

  (* ---- the originator A *)
  Definition envA22 (a : node22) : Prop :=
    f_rcv a = [] /\ f_mpg a = [] /\ n_timers (base a) = [] /\ n_cmdt_iv (base a) = None /\ n_subs (base a) = n_subs (base A0) /\
    n_cas (base a) = n_cas (base A0) /\ n_maxp (base a) = n_maxp (base A0) /\ f_rts a = pool1.
  (* envA22 reads only fields that a new send table and a wake-up leave alone *)
  Lemma envA22_snd a l : envA22 a -> envA22 (set_fsnd a l).
  Proof. exact (fun E => E). Qed.
  Lemma envA22_wake a : envA22 a -> envA22 (wake22 a).
  Proof. exact (fun E => E). Qed.
  Lemma acceptsA22 a : envA22 a -> accepts (base a) sa = true.
  Proof. intros (_ & _ & _ & _ & Es & Ec & _). rewrite (accepts_env (base A0) (base a) sa Es Ec). exact A0_accepts. Qed.
  Lemma maxpA22 a : envA22 a -> n_maxp (base a) = n_maxp (base A0).
  Proof. intros (_ & _ & _ & _ & _ & _ & Em & _). exact Em. Qed.

  Lemma hA22_cts a st dl nx w d c e : envA22 a -> f_snd a = [(h, sb22 st dl nx w d)] -> 0 <= e -> 1 <= c <= g0 -> e + c <= nseg ->
    handle22 a t0 (cts22 c (e + 1)) =
    (wake22 (set_fsnd a [(h, sb22 tp22_st_SENDING_RTS_CTS (Z.max t0 0) e (Some (e + c - 1)) d)]), []).
  Proof.
    intros Ea Hs He Hc Hle.
    pose proof nseg_range as Hn. pose proof pv22_range as Hpv. pose proof g0_range22 as (Hg & Hg2).
    assert (Hcm : c <= n_maxp (base A0)) by (unfold g0, limit in Hc; lia).
    unfold cts22, tp22_cts. rewrite handle22_cm by (try apply acceptsA22; assumption || lia).
    destruct (cm22_fields dest sa 1 0 16777215 (e + 1) c 0 pv 7) as (L & C & S & _ & N & B7 & _); try lia.
    rewrite (cts22_flat 7 dest sa _ t0 a (sb22 st dl nx w d));
      [|split; [rewrite L; apply le_n|exact C]|rewrite S, Hs; apply tget_single|rewrite B7; lia].
    cbv zeta. rewrite S, N, B7. fold h. rewrite Hs, tset_single, (maxpA22 a Ea). cbn [sb22 t_nseg t_nb].
    replace (e + 1 - 1) with e by lia. rewrite !Z.min_l by lia. reflexivity.
  Qed.

  Lemma hA22_eoma a st dl nx w d : envA22 a -> f_snd a = [(h, sb22 st dl nx w d)] ->
    exists os, handle22 a t0 eoma22 = (wake22 (set_fsnd a [(h, sb22 tp22_st_EOM_ACK_RECEIVED t0 nx w d)]), os) /\ txs os = [].
  Proof.
    intros Ea Hs. pose proof nseg_range as Hn. pose proof pv22_range as Hpv.
    unfold eoma22, tp22_eom_ack. rewrite handle22_cm by (try apply acceptsA22; assumption || lia).
    destruct (cm22_fields dest sa 3 0 (len p) nseg 255 255 pv 7) as (L & C & S & _); try lia.
    rewrite (eom_ack22_flat 7 dest sa _ t0 a (sb22 st dl nx w d)); [|split; [rewrite L; apply le_n|exact C]|rewrite S, Hs; apply tget_single].
    rewrite S. fold h. rewrite Hs, tset_single. eexists. split; [reflexivity|apply txs_deliveries].
  Qed.

  (* ---- the burst: rows e .. e+g go out in order; the last row of the message is followed by the end-of-message status *)
  Definition rows_ok (d : list (list Z)) (j0 : nat) : Prop := forall j, (j0 <= j)%nat -> nth_error d j = nth_error (segments p) j.
  Lemma rows_ok_upd d e seg : rows_ok d e -> rows_ok (upd_nth d e seg) (S e).
  Proof using. intros H j Hj. clear - H Hj. rewrite upd_nth_other by lia. apply H. lia. Qed.

  Definition after_burst (e' : nat) : Z * Z * list out :=
    if (S e' =? ns)%nat then (tp22_st_WAITING_EOM_ACK, t0 + tp22_T5, [OTx eoms22]) else (tp22_st_WAITING_CTS, t0 + tp22_T3, []).

  (* one row of this transfer's burst: [fd_burst_row] with the session's values put in *)
  Lemma burst22_row dl (e : nat) w d fuel a k :
    f_snd a = [(h, sb22 tp22_st_SENDING_RTS_CTS dl (Z.of_nat e) (Some w) d)] -> n_cmdt_iv (base a) = None -> rows_ok d e -> (e < ns)%nat ->
    exists seg', let put st dl' := set_fsnd a [(h, sb22 st dl' (Z.of_nat (S e)) (Some w) (upd_nth d e seg'))] in
      flat22 (fd_burst (S fuel) h t0 a k) =
      if (S e =? ns)%nat then
        let '(m', os, r) := flat22 (k (put tp22_st_WAITING_EOM_ACK (t0 + tp22_T5))) in (m', OTx (dtf22 e) :: OTx eoms22 :: os, r)
      else if Z.of_nat e =? w then
        let '(m', os, r) := flat22 (k (put tp22_st_WAITING_CTS (t0 + tp22_T3))) in (m', OTx (dtf22 e) :: os, r)
      else
        let '(m', os, r) := flat22 (fd_burst fuel h t0 (put tp22_st_SENDING_RTS_CTS dl) k) in (m', OTx (dtf22 e) :: os, r).
  Proof.
    intros Hs Hiv Hrows He. destruct (dtf22_frame e) as (seg' & _ & Hfr & _). exists seg'. intros put.
    rewrite (fd_burst_row fuel h t0 a k (sb22 tp22_st_SENDING_RTS_CTS dl (Z.of_nat e) (Some w) d) w (row p e) (dtf22 e) seg');
      cbn [sb22 t_next t_nseg t_data t_src t_dst t_session t_waitcts t_size t_pgn t_state t_deadline].
    - rewrite Hs, !tset_single, py_set_nat, Z.add_1_r, <- Nat2Z.inj_succ.
      destruct (Nat.eqb_spec (S e) ns) as [E|E].
      + rewrite (proj2 (Z.eqb_eq (Z.of_nat (S e)) nseg) (f_equal Z.of_nat E)). reflexivity.
      + rewrite (proj2 (Z.eqb_neq (Z.of_nat (S e)) nseg)) by (unfold nseg; lia). reflexivity.
    - rewrite Hs. apply tget_single.
    - unfold nseg. lia.
    - exact Hiv.
    - reflexivity.
    - rewrite py_nth_nat, (Hrows e (le_n e)). apply nth_segments. pose proof ns_range. lia.
    - exact Hfr.
  Qed.

  Lemma burst22 dl : forall (g e : nat) d fuel a k,
    f_snd a = [(h, sb22 tp22_st_SENDING_RTS_CTS dl (Z.of_nat e) (Some (Z.of_nat (e + g))) d)] ->
    n_cmdt_iv (base a) = None -> rows_ok d e -> (e + g < ns)%nat -> (g < fuel)%nat ->
    exists d', rows_ok d' (S (e + g)) /\
      flat22 (fd_burst fuel h t0 a k) =
      let '(st', dl', tail) := after_burst (e + g) in
      let '(s, os, r) := flat22 (k (set_fsnd a [(h, sb22 st' dl' (Z.of_nat (S (e + g))) (Some (Z.of_nat (e + g))) d')])) in
      (s, map OTx (dtfs22 e (S g)) ++ tail ++ os, r).
  Proof using Hsize HA HB.
    induction g as [|g IH]; intros e d fuel a k Hs Hiv Hrows Hlt Hf; (destruct fuel as [|f]; [lia|]).
    - (* the last row of the window *)
      rewrite Nat.add_0_r in *. destruct (burst22_row dl e _ d f a k Hs Hiv Hrows Hlt) as (seg' & E).
      exists (upd_nth d e seg'). split; [apply rows_ok_upd, Hrows|]. rewrite E. unfold after_burst.
      destruct (S e =? ns)%nat; [|rewrite Z.eqb_refl]; reflexivity.
    - (* a row inside the window: go on *)
      replace (e + S g)%nat with (S e + g)%nat in * by lia.
      destruct (burst22_row dl e _ d f a k Hs Hiv Hrows ltac:(lia)) as (seg' & E).
      rewrite (proj2 (Nat.eqb_neq (S e) ns)), (proj2 (Z.eqb_neq (Z.of_nat e) _)) in E by lia.
      destruct (IH (S e) (upd_nth d e seg') f (set_fsnd a _) k eq_refl Hiv (rows_ok_upd d e seg' Hrows) Hlt ltac:(lia)) as (d' & Hrows' & Hfl).
      exists d'. split; [exact Hrows'|]. rewrite E, Hfl.
      destruct (after_burst (S e + g)) as [[st' dl'] tail].
      destruct (flat22 (k _)) as [[s os] r]. reflexivity.
  Qed.

  (* ---- job iterations.  A holds the send session of this transfer, its rows from j0 on still as segmented; B holds the
     receive session, about to take row k *)
  Definition Asess22 (a : node22) (j0 : nat) : Prop :=
    exists st dl nx w d, f_snd a = [(h, sb22 st dl nx w d)] /\ rows_ok d j0.
  Definition Bsess22 (b : node22) (k : nat) : Prop :=
    exists rb, f_rcv b = [(h, rb)] /\ inv22 k rb /\ t0 < q_deadline rb.

  Lemma job22_B_wait b k : envB22 b -> Bsess22 b k -> exists r, flat22 (job_iter22 b t0) = (b, [], RDone r).
  Proof.
    intros (Bs & Bm & Bt & _) (rb & Hr & _ & Hd). eexists. apply (job22_rcv_wait b t0 h rb Hr Bm Bs Bt). lia.
  Qed.

  Lemma after_burst_waits e' : exists st dl,
    after_burst e' = (st, dl, map OTx (if (S e' =? ns)%nat then [eoms22] else [])) /\ (st =? tp22_st_SENDING_RTS_CTS) = false.
  Proof. unfold after_burst. destruct (S e' =? ns)%nat; eexists _, _; split; reflexivity. Qed.

  (* A's job thread sends the whole window, and the end-of-message status after the last row of the message *)
  Lemma job22_A_burst a (e g : nat) d dl : envA22 a ->
    f_snd a = [(h, sb22 tp22_st_SENDING_RTS_CTS dl (Z.of_nat e) (Some (Z.of_nat (e + g))) d)] ->
    rows_ok d e -> (e + g < ns)%nat -> dl <> 0 -> dl <= t0 ->
    exists a' r, flat22 (job_iter22 a t0) = (a', map OTx (dtfs22 e (S g) ++ if (S (e + g) =? ns)%nat then [eoms22] else []), RDone r) /\
                 envA22 a' /\ Asess22 a' (S (e + g)).
  Proof.
    intros Ea Hs Hrows Hlt Hd0 Hdl. pose proof Ea as (Ar & Am & At & Ai & _).
    rewrite (job22_snd a t0 h _ Ar Am Hs), (snd_pass22_due h [] t0 _ a _ _ ltac:(rewrite Hs; apply tget_single) Hd0 Hdl).
    change (snd22_class _) with DBurst. cbv iota. cbn [sb22 t_nseg t_next].
    match goal with |- context [fd_burst ?fu h t0 a ?kk] =>
      destruct (burst22 dl g e d fu a kk Hs Ai Hrows Hlt) as (d' & Hrows' & Hfl) end.
    { unfold nseg. lia. }
    rewrite Hfl. destruct (after_burst_waits (e + g)) as (st' & dl' & -> & Hst).
    cbn [f_snd set_fsnd]. rewrite tget_single. cbn [sb22 t_state]. rewrite Hst. cbn [andb snd_pass22]. rewrite tset_single.
    rewrite job22_end_done by exact At. rewrite app_nil_r, map_app. eexists _, _. split; [reflexivity|].
    split; [apply envA22_snd, envA22_snd, Ea|]. eexists _, _, _, _, d'. split; [reflexivity|exact Hrows'].
  Qed.

  Lemma job22_A_finished a nx w d : envA22 a -> f_snd a = [(h, sb22 tp22_st_EOM_ACK_RECEIVED t0 nx w d)] ->
    exists r, flat22 (job_iter22 a t0) = (set_frts (set_fsnd a []) (repeat true tp22_pool_rts), [], RDone r).
  Proof.
    intros (Ar & Am & At & Ai & _ & _ & _ & Ap) Hs. rewrite (job22_snd a t0 h _ Ar Am Hs).
    edestruct (snd22_finished_releases h t0) as (a' & Hret & ->);
      [rewrite Hs; apply tget_single|left; reflexivity|cbn [sb22 t_deadline]; lia|cbn [sb22 t_deadline]; lia
      |exact (first_in_pool a (sb22 _ t0 nx w d) false _ dest_p2p eq_refl Ap)|].
    rewrite (first_returned _ _ _ false _ Hret dest_p2p eq_refl Ap), job22_end_done by exact At. rewrite Hs, tdel_single.
    eexists. reflexivity.
  Qed.

  (* ---- shapes: the state of the network between two steps, at time t0.  The window that starts after e rows holds
     [cnt g0 nseg e] rows and ends after [wend g0 nseg e]; B is about to take row k of it *)
  Definition Bwin22 (b : node22) (e k : nat) : Prop := at_border g0 e /\ (e < ns)%nat /\ Bsess22 b k.
  Definition tailq (e : nat) : list frame := if (wend g0 nseg e =? ns)%nat then [eoms22] else [].

  Definition S_Rts : net22 -> Prop :=
    shape22 envA22 envB22 t0 [] [rts22] [] [rts22] (fun a b => Asess22 a 0 /\ f_rcv b = []).
  Definition S_Cts (e : nat) : net22 -> Prop :=
    shape22 envA22 envB22 t0 [cts22 (cnt g0 nseg e) (Z.of_nat e + 1)] [] [] (rts22 :: dtfs22 0 e)
      (fun a b => Asess22 a e /\ Bwin22 b e e).
  Definition S_Send (e : nat) : net22 -> Prop :=
    shape22 envA22 envB22 t0 [] [] [] (rts22 :: dtfs22 0 e) (fun a b =>
      (exists d, f_snd a = [(h, sb22 tp22_st_SENDING_RTS_CTS (Z.max t0 0) (Z.of_nat e) (Some (Z.of_nat e + cnt g0 nseg e - 1)) d)] /\
                 rows_ok d e) /\ Bwin22 b e e).
  Definition S_Dt (e k : nat) : net22 -> Prop :=
    shape22 envA22 envB22 t0 [] (dtfs22 k (wend g0 nseg e - k) ++ tailq e) [] (rts22 :: dtfs22 0 (wend g0 nseg e) ++ tailq e)
      (fun a b => Asess22 a (wend g0 nseg e) /\ Bwin22 b e k /\ (e <= k < wend g0 nseg e)%nat).
  Definition S_Eoms : net22 -> Prop :=
    shape22 envA22 envB22 t0 [] [eoms22] [] (rts22 :: dtfs22 0 ns ++ [eoms22])
      (fun a b => Asess22 a ns /\ exists dl border, f_rcv b = [(h, rb22 dl (nseg + 1) border p)]).
  Definition S_Eoma : net22 -> Prop :=
    shape22 envA22 envB22 t0 [eoma22] [] delivered22 (rts22 :: dtfs22 0 ns ++ [eoms22]) (fun a b => Asess22 a ns /\ f_rcv b = []).
  Definition S_Fin : net22 -> Prop :=
    shape22 envA22 envB22 t0 [] [] delivered22 (rts22 :: dtfs22 0 ns ++ [eoms22])
      (fun a b => (exists nx w d, f_snd a = [(h, sb22 tp22_st_EOM_ACK_RECEIVED t0 nx w d)]) /\ f_rcv b = []).
  (* the end: nothing queued, no session on either side, the session number is back in the pool, p delivered once, the wire
     carried RTS, the data frames of all segments in order, and the end-of-message status *)
  Definition restA22 (a : node22) : Prop :=
    f_mpg a = [] /\ n_timers (base a) = [] /\ n_cmdt_iv (base a) = None /\ n_subs (base a) = n_subs (base A0) /\
    n_cas (base a) = n_cas (base A0) /\ n_maxp (base a) = n_maxp (base A0).
  Definition S_Done (s : net22) : Prop :=
    pa s = [] /\ pb s = [] /\ f_snd (fa s) = [] /\ f_rcv (fa s) = [] /\ f_snd (fb s) = [] /\ f_rcv (fb s) = [] /\
    f_rts (fa s) = repeat true tp22_pool_rts /\ evb2 s = delivered22 /\
    wab2 s = rts22 :: map (fun k => match dt_frame sa dest 0 (Z.of_nat k + 1) (row p k) with Some (fr, _) => fr | None => eoms22 end) (seq 0 ns)
             ++ [eoms22] /\
    (t0 <= fclk s /\ restA22 (fa s) /\ envB22 (fb s)).

  Lemma wend22_facts e : (e < ns)%nat ->
    1 <= cnt g0 nseg e <= g0 /\ Z.of_nat (wend g0 nseg e) = Z.of_nat e + cnt g0 nseg e /\ Z.of_nat e + cnt g0 nseg e <= nseg /\
    (e < wend g0 nseg e <= ns)%nat.
  Proof.
    intros He. destruct (wend_facts g0 nseg (proj1 (proj1 g0_range22)) e) as (Hc & Hw & Hlt & Hle); [unfold nseg; lia|].
    split; [exact Hc|]. split; [exact Hw|]. split; [rewrite <- Hw; exact Hle|]. split; [exact Hlt|exact (proj2 (Nat2Z.inj_le _ ns) Hle)].
  Qed.

  (* B answers with the next CTS exactly at the end of a window that is not the end of the message *)
  Lemma answer22_window e k : at_border g0 e -> (e <= k < wend g0 nseg e)%nat -> (k < ns)%nat ->
    answer22 k = if (S k =? ns)%nat then []
                 else if (S k =? wend g0 nseg e)%nat then [OTx (cts22 (cnt g0 nseg (S k)) (Z.of_nat (S k) + 1))] else [].
  Proof.
    intros Hb Hk Hlt. pose proof g0_range22 as (Hg & _). unfold answer22. destruct (Nat.eqb_spec (S k) ns) as [E|E].
    - rewrite (proj2 (Z.eqb_eq (Z.of_nat k + 1) nseg)) by (unfold nseg; lia). reflexivity.
    - rewrite (proj2 (Z.eqb_neq (Z.of_nat k + 1) nseg)) by (unfold nseg; lia).
      pose proof (window_cases g0 nseg (proj1 Hg) e k Hb Hk ltac:(unfold nseg; lia)) as Hw.
      destruct (S k =? wend g0 nseg e)%nat; [|rewrite (proj2 (Z.eqb_neq _ _) Hw); reflexivity].
      destruct Hw as (Hm & _). rewrite (proj2 (Z.eqb_eq _ _) Hm).
      unfold cnt. rewrite Nat2Z.inj_succ, <- Z.add_1_r, <- Z.add_assoc. reflexivity.
  Qed.

  Lemma T22_rts s : S_Rts s -> S_Cts 0 (step22 s).
  Proof.
    intros (a & b & ea & wb & -> & Ea & Eb & As & Hr). pose proof g0_range22 as (Hg & _).
    unfold step22. cbn [pa pb fa fb fclk eva2 evb2 wab2 wba2]. rewrite (hB22_rts b Eb Hr). cbn [txs flat_map evs filter app].
    unfold S_Cts. replace (cnt g0 nseg 0) with g0 by (unfold cnt; lia).
    apply shape22_intro; [exact Ea|apply envB22_wake, envB22_rcv, Eb|]. split; [exact As|].
    split; [apply at_border_0|]. split; [pose proof ns_range; lia|].
    eexists. split; [reflexivity|]. split; [|apply Z.lt_add_pos_r; reflexivity].
    exists (t0 + tp22_T2). change (Z.of_nat 0) with 0. rewrite Z.div_0_l, Z.mul_1_l, Z.min_l by lia. reflexivity.
  Qed.

  Lemma T22_cts e s : S_Cts e s -> S_Send e (step22 s).
  Proof.
    intros (a & b & ea & wb & -> & Ea & Eb & (st & dl & nx & w & d & Hs & Hrows) & HW).
    destruct (wend22_facts e (proj1 (proj2 HW))) as (Hcnt & _ & Hzn & _).
    unfold step22. cbn [pa pb fa fb fclk eva2 evb2 wab2 wba2].
    rewrite (hA22_cts a st dl nx w d (cnt g0 nseg e) (Z.of_nat e) Ea Hs (Nat2Z.is_nonneg e) Hcnt Hzn).
    cbn [txs flat_map evs filter]. rewrite !app_nil_r.
    apply shape22_intro; [apply envA22_wake, envA22_snd, Ea|exact Eb|]. split; [exists d; split; [reflexivity|exact Hrows]|exact HW].
  Qed.

  Lemma T22_send e s : S_Send e s -> S_Dt e e (step22 s).
  Proof.
    intros (a & b & ea & wb & -> & Ea & Eb & (d & Hs & Hrows) & HW). pose proof HW as (_ & He & Bs).
    destruct (wend22_facts e He) as (Hcnt & Hwe & Hzn & Hwl).
    (* the window holds g + 1 rows *)
    set (g := Z.to_nat (cnt g0 nseg e - 1)).
    assert (Hg : Z.of_nat (e + g) = Z.of_nat e + cnt g0 nseg e - 1) by (unfold g; lia). rewrite <- Hg in Hs.
    assert (Eeg : S (e + g) = wend g0 nseg e) by lia. assert (Sg : S g = (wend g0 nseg e - e)%nat) by lia.
    destruct (job22_A_burst a e g d (Z.max t0 0) Ea Hs Hrows) as (a' & ra & Hja & Ea' & As'); try lia.
    destruct (job22_B_wait b e Eb Bs) as (rbb & Hjb). rewrite Eeg, Sg in *. fold (tailq e) in Hja.
    erewrite step22_sends; [|reflexivity|reflexivity|exact Hja|exact Hjb|rewrite txs_map_OTx, <- Sg; discriminate].
    cbn [pa pb fa fb fclk eva2 evb2 wab2 wba2 txs flat_map evs filter]. rewrite txs_map_OTx, evs_map_OTx, !app_nil_r.
    cbn [app]. rewrite (app_assoc (dtfs22 0 e)), dtfs22_upto by lia.
    apply shape22_intro; [exact Ea'|exact Eb|]. split; [exact As'|]. split; [exact HW|lia].
  Qed.

  Lemma T22_dt e k s : S_Dt e k s ->
    (if (S k =? ns)%nat then S_Eoms (step22 s)
     else if (S k =? wend g0 nseg e)%nat then S_Cts (S k) (step22 s) else S_Dt e (S k) (step22 s)).
  Proof.
    intros (a & b & ea & wb & -> & Ea & Eb & As & (Hb & He & rb & Hr & Hinv & Hdl) & Hk).
    destruct (wend22_facts e He) as (_ & _ & _ & Hwl). assert (Hkn : (k < ns)%nat) by lia.
    replace (wend g0 nseg e - k)%nat with (S (wend g0 nseg e - S k)) by lia. rewrite dtfs22_cons.
    unfold step22. cbn [app pa pb fa fb fclk eva2 evb2 wab2 wba2].
    destruct (hB22_dt b rb k Eb Hr Hinv Hkn) as (b' & rb' & Hh & Eb' & Hr' & Hdl' & Hn).
    rewrite Hh, (answer22_window e k Hb Hk Hkn).
    destruct (Nat.eqb_spec (S k) ns) as [Elast|Nlast]; [|destruct (Nat.eqb_spec (S k) (wend g0 nseg e)) as [Eend|Nend]];
      cbn [txs flat_map evs filter app]; rewrite ?app_nil_r.
    - (* the last row of the message: only the end-of-message status is left in B's queue *)
      assert (Ew : wend g0 nseg e = ns) by lia. unfold tailq. rewrite Ew, Nat.eqb_refl in *.
      replace (ns - S k)%nat with 0%nat by lia. destruct Hn as (dl2 & ->).
      apply shape22_intro; [exact Ea|exact Eb'|]. split; [exact As|eexists _, _; exact Hr'].
    - (* the last row of its window: B's CTS opens the next *)
      pose proof (window_cases g0 nseg (proj1 (proj1 g0_range22)) e k Hb Hk ltac:(unfold nseg; lia)) as Hw.
      rewrite <- Eend, Nat.eqb_refl in Hw.
      assert (Et : tailq e = []) by (unfold tailq; rewrite <- Eend; apply Nat.eqb_neq in Nlast; rewrite Nlast; reflexivity).
      rewrite Et, <- Eend, Nat.sub_diag, !app_nil_r in *.
      apply shape22_intro; [exact Ea|exact Eb'|]. split; [exact As|].
      split; [apply Hw|]. split; [lia|]. exists rb'. split; [exact Hr'|]. split; [exact Hn|exact Hdl'].
    - apply shape22_intro; [exact Ea|exact Eb'|]. split; [exact As|]. split; [|lia].
      split; [exact Hb|]. split; [exact He|]. exists rb'. split; [exact Hr'|]. split; [exact Hn|exact Hdl'].
  Qed.

  Lemma T22_eoms s : S_Eoms s -> S_Eoma (step22 s).
  Proof.
    intros (a & b & ea & wb & -> & Ea & Eb & As & dl & border & Hr).
    unfold step22. cbn [pa pb fa fb fclk eva2 evb2 wab2 wba2]. rewrite (hB22_eoms b dl border Eb Hr).
    rewrite txs_app, evs_app. unfold delivered22 at 1 2. rewrite txs_deliveries, evs_deliveries. cbn [txs flat_map evs filter app].
    rewrite app_nil_r. apply shape22_intro; [exact Ea|apply envB22_rcv, Eb|]. split; [exact As|reflexivity].
  Qed.

  Lemma T22_eoma s : S_Eoma s -> S_Fin (step22 s).
  Proof.
    intros (a & b & ea & wb & -> & Ea & Eb & (st & dl & nx & w & d & Hs & _) & Hr).
    unfold step22. cbn [pa pb fa fb fclk eva2 evb2 wab2 wba2].
    destruct (hA22_eoma a st dl nx w d Ea Hs) as (os & Hh & Hos). rewrite Hh, Hos, !app_nil_r.
    apply shape22_intro; [apply envA22_wake, envA22_snd, Ea|exact Eb|]. split; [eexists _, _, _; reflexivity|exact Hr].
  Qed.

  Lemma T22_fin s : S_Fin s -> S_Done (step22 s).
  Proof.
    intros (a & b & ea & wb & -> & Ea & Eb & (nx & w & d & Hs) & Hr).
    rewrite step22_idle by reflexivity. cbn [pa pb fa fb fclk eva2 evb2 wab2 wba2].
    destruct (job22_A_finished a nx w d Ea Hs) as (ra & Hja). rewrite Hja.
    pose proof Eb as (Bs & Bm & Bt & _). rewrite (job22_idle b t0 Hr Bm Bs Bt). cbn [txs flat_map evs filter].
    destruct Ea as (Ar & Am & At & Ai & Asub & Acas & Amx & Arts).
    unfold S_Done. cbn [fa fb pa pb fclk evb2 wab2 f_snd f_rcv f_rts set_frts set_fsnd]. rewrite !app_nil_r.
    split; [reflexivity|]. split; [reflexivity|]. split; [reflexivity|]. split; [exact Ar|]. split; [exact Bs|]. split; [exact Hr|].
    split; [reflexivity|]. split; [reflexivity|].
    split; [unfold dtfs22; f_equal; f_equal; apply map_ext; intros k; apply dtf22_wire|].
    split; [destruct (_ && _ && _); lia|]. split; [|exact Eb].
    unfold restA22. repeat split; assumption.
  Qed.

  Lemma dt22_reaches e k s : S_Dt e k s -> reaches steps22 S_Done s.
  Proof.
    apply (reaches_loop step22 steps22 (fun _ => eq_refl) (fun _ _ => eq_refl)
             (fun ek => (ns - snd ek)%nat) (fun ek => S_Dt (fst ek) (snd ek)) S_Done) with (a := (e, k)).
    clear e k s. intros [e k] s Hsh. cbn [fst snd] in *.
    assert (Hk : (k < ns)%nat).
    { destruct Hsh as (_ & _ & _ & _ & _ & _ & _ & _ & (_ & He & _) & Hk). destruct (wend22_facts e He) as (_ & _ & _ & Hwl). lia. }
    pose proof (T22_dt e k s Hsh) as Hn.
    destruct (S k =? ns)%nat; [|destruct (S k =? wend g0 nseg e)%nat].
    - left. exists 4%nat. apply T22_fin, T22_eoma, T22_eoms, Hn.
    - right. exists (S k, S k). split; [cbn [snd]; lia|]. exists 3%nat. apply T22_send, T22_cts, Hn.
    - right. exists (e, S k). split; [cbn [snd]; lia|]. exists 1%nat. exact Hn.
  Qed.

  Lemma start22_is_rts : S_Rts (net22_send (net22_0 A0 B0 t0) dp pf dest prio sa p).
  Proof.
    destruct HA as (As & Ar & Am & At & Ai & Aa & Amx & Ap). destruct HB as (Bs & Br & Bm & Bt & Ba & Bmx).
    unfold net22_send, net22_0. cbn [fa fb pa pb fclk eva2 evb2 wab2 wba2].
    rewrite (send_pgn22_rts A0 t0 As Ap eq_refl). cbn [txs flat_map evs filter app].
    apply shape22_intro.
    - unfold envA22. cbn. repeat split; assumption || reflexivity.
    - unfold envB22. repeat split; assumption || reflexivity.
    - split; [eexists _, _, _, _, _; split; [reflexivity|intros j _; reflexivity]|exact Br].
  Qed.

  Theorem closed_loop22 : reaches steps22 S_Done (net22_send (net22_0 A0 B0 t0) dp pf dest prio sa p).
  Proof.
    apply (reaches_trans step22 steps22 (fun _ => eq_refl) (fun _ _ => eq_refl) (S_Dt 0 0)); [|apply dt22_reaches].
    exists 3%nat. apply T22_send, T22_cts, T22_rts, start22_is_rts.
  Qed.
End Loop22.

(* T02.5: the FD closed loop delivers, stated without the proof's vocabulary *)
Theorem closed_loop22_delivers prio sa dest dp pf p t0 A0 B0 :
  0 <= prio < 8 -> 0 <= sa < 255 -> 0 <= dest < 255 -> 0 <= pf < 240 -> 0 <= dp < 2 -> 60 < len p < 16777216 -> 0 < t0 ->
  f_snd A0 = [] /\ f_rcv A0 = [] /\ f_mpg A0 = [] /\ n_timers (base A0) = [] /\ n_cmdt_iv (base A0) = None /\
    accepts (base A0) sa = true /\ 1 <= n_maxp (base A0) < 256 /\ f_rts A0 = repeat true tp22_pool_rts ->
  f_snd B0 = [] /\ f_rcv B0 = [] /\ f_mpg B0 = [] /\ n_timers (base B0) = [] /\ accepts (base B0) dest = true /\ 1 <= n_maxp (base B0) ->
  let pv := dp * 65536 + pf * 256 in
  let ns := ((length p + 59) / 60)%nat in
  exists j, let s := steps22 j (net22_send (net22_0 A0 B0 t0) dp pf dest prio sa p) in
    pa s = [] /\ pb s = [] /\ f_snd (fa s) = [] /\ f_rcv (fa s) = [] /\ f_snd (fb s) = [] /\ f_rcv (fb s) = [] /\
    f_rts (fa s) = repeat true tp22_pool_rts /\
    evb2 s = deliveries (base B0) 7 pv sa dest p /\
    wab2 s = tp22_rts prio sa dest 0 pv (len p) (Z.of_nat ns) (Z.min (n_maxp (base A0)) (Z.of_nat ns))
             :: map (fun k => match dt_frame sa dest 0 (Z.of_nat k + 1) (row p k) with
                              | Some (fr, _) => fr | None => tp22_eom_status sa dest 0 (len p) (Z.of_nat ns) pv end) (seq 0 ns)
             ++ [tp22_eom_status sa dest 0 (len p) (Z.of_nat ns) pv].
Proof.
  intros H1 H2 H3 H4 H5 H6 H7 HA HB pv ns.
  destruct (closed_loop22 prio sa dest dp pf p t0 A0 B0 H1 H2 H3 H4 H5 H6 H7 HA HB) as (j & Q1 & Q2 & Q3 & Q4 & Q5 & Q6 & Q7 & Q8 & Q9 & _).
  exists j. repeat split; assumption.
Qed.

Example closed_loop22_instance :
  let A := sub22 (init_node22 3 None None) 1 (FAddr 128) in
  let B := sub22 (init_node22 2 None None) 7 (FAddr 144) in
  let p := map Z.of_nat (seq 1 150) in
  let s := steps22 11 (net22_send (net22_0 A B 1000) 0 239 144 6 128 p) in
  quiet22 s = true /\ evb2 s = [OCb 7 7 61184 128 p] /\ length (wab2 s) = 5%nat /\ length (wba2 s) = 3%nat.
Proof. vm_compute. repeat split. Qed.
