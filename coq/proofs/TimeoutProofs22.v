(* TimeoutProofs22.v — C06/C07 on the J1939-22 layer: what ONE pass of the job thread does to a session whose time limit
   has run out, for EVERY session record, table and continuation: who is told (the abort goes from the side that gives up
   to its peer, under the session's own number), what is released (the session AND, on the originating side, its session
   number, to the pool it came from), and that nothing happens before the deadline. *)
From J1939 Require Import Base CodecGlue Model21 Model22.
From J1939.gen Require Import Codec Tp21Gen CaGen Tp22Gen.
From J1939P Require Import Flat MpgProofs PoolProofs Steps22.

Theorem timeouts22_within_standard :
  tp22_T1 = 750000 /\ tp22_T2 = 1250000 /\ tp22_T3 = 1250000 /\ tp22_T4 = 1050000 /\ tp22_T5 = 3000000 /\ tp22_Th = 500000.
Proof. repeat split; reflexivity. Qed.

(* responder: a receive session past its deadline is removed; a connection-mode peer is told (reason 3 = timeout), the
   abort going FROM the address the session was received for TO the originator, under the session's number *)
Theorem rcv22_timeout_releases key now nw m k b :
  tget (f_rcv m) key = Some b -> q_deadline b <> 0 -> q_deadline b <= now ->
  flat22 (rcv_pass22 [key] now nw m k) =
  let m' := set_frcv m (tdel (f_rcv m) key) in
  let '(s, os, r) := flat22 (k m' nw) in
  (s, (if q_dst b =? addr_GLOBAL then [] else [OTx (tp22_abort (q_dst b) (q_src b) (q_session b) tp22_reason_TIMEOUT (q_pgn b))]) ++ os, r).
Proof.
  intros Hget H0 Hle. cbn [rcv_pass22]. rewrite Hget.
  assert ((q_deadline b =? 0) = false) as -> by lia.
  assert ((q_deadline b >? now) = false) as -> by lia.
  destruct (q_dst b =? addr_GLOBAL); cbn [negb flat22 app rcv_pass22];
    destruct (flat22 (k _ nw)) as [[s os] r]; reflexivity.
Qed.

Theorem rcv22_before_deadline key now nw m k b :
  tget (f_rcv m) key = Some b -> now < q_deadline b -> 0 <= now ->
  rcv_pass22 [key] now nw m k = k m (minw nw (q_deadline b)).
Proof.
  intros Hget Hlt H0. cbn [rcv_pass22]. rewrite Hget.
  assert ((q_deadline b =? 0) = false) as -> by lia.
  assert ((q_deadline b >? now) = true) as -> by lia. reflexivity.
Qed.

Definition returned (m : node22) (b : sbuf22) (m' : node22) : Prop :=
  if t_dst b =? addr_GLOBAL
  then exists l, pool_put (f_bam m) (t_session b) = Some l /\ m' = set_fbam m l
  else exists l, pool_put (f_rts m) (t_session b) = Some l /\ m' = set_frts m l.

Definition in_pool (m : node22) (b : sbuf22) : Prop :=
  0 <= t_session b < Z.of_nat (length (if t_dst b =? addr_GLOBAL then f_bam m else f_rts m)).

Lemma returned_eq m b m' :
  returned m b m' <-> exists l, pool_put (pool_of m (kind b)) (t_session b) = Some l /\ m' = set_pool m (kind b) l.
Proof. unfold returned, pool_of, set_pool, kind. destruct (t_dst b =? addr_GLOBAL); reflexivity. Qed.

(* for the closed loops, whose one session holds number 0 of its pool ([g]: the pool for broadcasts or for connections) *)
Lemma first_in_pool m b g l : kind b = g -> t_session b = 0 -> pool_of m g = false :: l -> in_pool m b.
Proof. intros <- Hs Hp. unfold in_pool. fold (kind b) (pool_of m (kind b)). rewrite Hs, Hp. cbn [length]. lia. Qed.
Lemma first_returned m b m' g l : returned m b m' -> kind b = g -> t_session b = 0 -> pool_of m g = false :: l ->
  m' = set_pool m g (true :: l).
Proof. intros Hr <- Hs Hp. apply returned_eq in Hr. destruct Hr as (l' & Hl & ->). rewrite Hs, Hp in Hl. injection Hl as <-. reflexivity. Qed.

Lemma put_session_ok m b (k : node22 -> act node22) :
  in_pool m b -> exists m', returned m b m' /\ put_session m b k = k m'.
Proof.
  intros [H0 Hlt]. fold (kind b) (pool_of m (kind b)) in Hlt. pose proof (pool_put_nonneg (pool_of m (kind b)) (t_session b) H0) as E.
  rewrite (proj2 (Z.ltb_lt _ _) Hlt) in E. eexists. rewrite returned_eq, put_session_eq, E.
  split; [eexists; split; reflexivity|reflexivity].
Qed.

Lemma release22_returns key b m cont :
  tget (f_snd m) key = Some b -> in_pool m b ->
  exists m', returned (set_fsnd m (tdel (f_snd m) key)) b m' /\ release22 key b m cont = cont m'.
Proof. intros G Hp. unfold release22. rewrite (tmem_get _ _ _ G). apply put_session_ok. exact Hp. Qed.

(* a frame goes out and the session is released: the two states that tell the peer something at their deadline *)
Lemma emit_release22 fr key b m cont :
  tget (f_snd m) key = Some b -> in_pool m b ->
  exists m', returned (set_fsnd m (tdel (f_snd m) key)) b m' /\
  flat22 (Emit m (OTx fr) (fun m1 => release22 key b m1 cont)) = let '(s, os, r) := flat22 (cont m') in (s, OTx fr :: os, r).
Proof.
  intros Hget Hp. destruct (release22_returns key b m cont Hget Hp) as (m' & Hr & He).
  exists m'. split; [exact Hr|]. cbn [flat22]. rewrite He. reflexivity.
Qed.

(* originator waiting for a CTS: abort (reason 3) FROM its own address TO the responder under the session's number, the
   session is removed and its number is back in the pool it was taken from — after T3, whatever the continuation *)
Theorem snd22_timeout_releases key now nw m k b :
  tget (f_snd m) key = Some b -> t_state b = tp22_st_WAITING_CTS -> t_deadline b <> 0 -> t_deadline b <= now ->
  in_pool m b ->
  exists m', returned (set_fsnd m (tdel (f_snd m) key)) b m' /\
  flat22 (snd_pass22 [key] now nw m k) =
  let '(s, os, r) := flat22 (k m' nw) in
  (s, OTx (tp22_abort (t_src b) (t_dst b) (t_session b) tp22_reason_TIMEOUT (t_pgn b)) :: os, r).
Proof.
  intros Hget Hst H0 Hle Hp. rewrite (snd_pass22_due _ _ _ _ _ _ b Hget H0 Hle), Hst.
  exact (emit_release22 _ key b m (fun m3 => snd_pass22 [] now nw m3 k) Hget Hp).
Qed.

(* a broadcast that has sent its last data frame: the status is what closes it *)
Lemma snd22_eom_status_releases key now nw m k b :
  tget (f_snd m) key = Some b -> t_state b = tp22_st_SENDING_EOM_STATUS -> t_deadline b <> 0 -> t_deadline b <= now ->
  in_pool m b ->
  exists m', returned (set_fsnd m (tdel (f_snd m) key)) b m' /\
  flat22 (snd_pass22 [key] now nw m k) =
  let '(s, os, r) := flat22 (k m' nw) in
  (s, OTx (tp22_eom_status (t_src b) (t_dst b) (t_session b) (t_size b) (t_nseg b) (t_pgn b)) :: os, r).
Proof.
  intros Hget Hst H0 Hle Hp. rewrite (snd_pass22_due _ _ _ _ _ _ b Hget H0 Hle), Hst.
  exact (emit_release22 _ key b m (fun m3 => snd_pass22 [] now nw m3 k) Hget Hp).
Qed.

Lemma snd22_released key now nw m k b :
  tget (f_snd m) key = Some b -> snd22_class (t_state b) = DRelease -> t_deadline b <> 0 -> t_deadline b <= now ->
  in_pool m b ->
  exists m', returned (set_fsnd m (tdel (f_snd m) key)) b m' /\
  snd_pass22 [key] now nw m k = k m' nw.
Proof.
  intros Hget Hst H0 Hle Hp. rewrite (snd_pass22_due _ _ _ _ _ _ b Hget H0 Hle), Hst.
  apply (release22_returns key b m (fun m3 => snd_pass22 [] now nw m3 k) Hget Hp).
Qed.

(* originator that has sent its end-of-message status and hears no acknowledgement: the session and its number are
   released silently (it owes no abort), T5 after the status *)
Theorem snd22_ack_wait_releases key now nw m k b :
  tget (f_snd m) key = Some b -> t_state b = tp22_st_WAITING_EOM_ACK -> t_deadline b <> 0 -> t_deadline b <= now ->
  in_pool m b ->
  exists m', returned (set_fsnd m (tdel (f_snd m) key)) b m' /\
  snd_pass22 [key] now nw m k = k m' nw.
Proof. intros Hget Hst. apply snd22_released; [exact Hget|]. rewrite Hst. reflexivity. Qed.

(* an acknowledged or finished session goes the same way at its next deadline (the session number cannot leak) *)
Theorem snd22_finished_releases key now nw m k b :
  tget (f_snd m) key = Some b ->
  t_state b = tp22_st_EOM_ACK_RECEIVED \/ t_state b = tp22_st_TRANSMISSION_FINISHED ->
  t_deadline b <> 0 -> t_deadline b <= now -> in_pool m b ->
  exists m', returned (set_fsnd m (tdel (f_snd m) key)) b m' /\
  snd_pass22 [key] now nw m k = k m' nw.
Proof. intros Hget Hst. apply snd22_released; [exact Hget|]. destruct Hst as [-> | ->]; reflexivity. Qed.

Theorem snd22_before_deadline key now nw m k b :
  tget (f_snd m) key = Some b -> now < t_deadline b -> 0 <= now ->
  snd_pass22 [key] now nw m k = k m (minw nw (t_deadline b)).
Proof.
  intros Hget Hlt H0. rewrite (snd_pass22_keep _ _ _ _ _ _ b Hget) by (right; exact Hlt).
  rewrite (proj2 (Z.eqb_neq _ _)) by lia. reflexivity.
Qed.

(* the returned number is usable again: [true] in a pool marks a free number *)
Lemma returned_is_free m b m' :
  in_pool m b -> returned m b m' ->
  nth_error (if t_dst b =? addr_GLOBAL then f_bam m' else f_rts m') (Z.to_nat (t_session b)) = Some true.
Proof.
  rewrite returned_eq. intros [H0 Hlt] (l & Hl & E). apply pool_put_spec in Hl; [subst l|exact H0].
  fold (kind b) (pool_of m (kind b)) in Hlt. change (nth_error (pool_of m' (kind b)) (Z.to_nat (t_session b)) = Some true).
  rewrite <- flag_of_eq, E. apply flag_of_upd_same; [reflexivity..|lia].
Qed.

Example timeout22_example :
  let m0 := init_node22 1 None None in
  let b := {| t_pgn := 53248; t_prio := 6; t_session := 0; t_size := 100; t_nseg := 2; t_data := []; t_state := tp22_st_WAITING_CTS;
              t_deadline := 1250001; t_src := 16; t_dst := 32; t_next := 0; t_waitcts := Some 0; t_nb := 0 |} in
  let m := set_fsnd (set_frts m0 (false :: repeat true 7)) [(7, b)] in
  tget (f_snd m) 7 = Some b /\ in_pool m b /\
  f_rts (fst (fst (flat22 (snd_pass22 [7] 1250001 0 m (fun m' _ => Done m' 0))))) = repeat true 8.
Proof. vm_compute. repeat split; try reflexivity; discriminate. Qed.
