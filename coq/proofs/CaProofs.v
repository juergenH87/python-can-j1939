(* CaProofs.v — C13 (a CA sends application data only from an address it holds) and
   C14 (PGN requests reach exactly the addressed operational CAs; claims are answered). *)
From J1939 Require Import Base CodecGlue Model21.
From J1939.gen Require Import Codec Tp21Gen CaGen.
From J1939P Require Import CodecProofs Flat Steps21 Tp21Resp ClaimProofs.

(* ---------------------------------------------------------------- C13 *)
(* T13.1: over every history of timer firings and received claims, an operational CA's address is the
   one it announced; any other CA reports the null address *)
Definition ca_ok (c : ca) : Prop := c_state c = ca_state_NORMAL -> c_addr c = Some (c_ann c).

Inductive cev := CTimer | CClaim (m : msg).
Definition ca_step (c : ca) (e : cev) : ca :=
  match e with CTimer => fst (fst (ca_timer c)) | CClaim m => fst (ca_claim c m) end.

Theorem ca_ok_invariant c evs : ca_ok c -> ca_ok (fold_left ca_step evs c).
Proof.
  revert c. induction evs as [|e es IH]; intros c H; cbn [fold_left]; [exact H|].
  apply IH. destruct e as [|[sa other]]; cbn [ca_step].   (* the middle clause of behaves is ca_ok c -> ca_ok c' *)
  - destruct (ca_timer c) as [[c' outs] tts] eqn:E. exact (proj1 (proj2 (ca_timer_behaves _ _ _ _ E)) H).
  - destruct (ca_claim c (sa, other)) as [c' outs] eqn:E. exact (proj1 (proj2 (ca_claim_behaves _ _ _ _ _ E)) H).
Qed.

Theorem fresh_ca_ok v pref byp : ca_ok (mk_ca v pref byp).
Proof.
  unfold mk_ca, ca_ok. destruct byp; destruct pref; cbn; intros H; try discriminate; reflexivity.
Qed.

Theorem device_address_null_unless_normal c :
  c_state c <> ca_state_NORMAL -> ca_device_address c = addr_NULL.
Proof. intros H. apply Z.eqb_neq in H. unfold ca_device_address. rewrite H. reflexivity. Qed.

(* T13.2: the three send entry points raise, emit nothing and change nothing unless the CA is operational
   (send_request for the address-claim PGN excepted, which goes out from the null address) *)
Theorem guard_send_pgn n i c now dp pf ps prio data :
  nth_error (n_cas n) i = Some c -> c_state c <> ca_state_NORMAL ->
  ca_send_pgn n i now dp pf ps prio data = Raise n E_Runtime.
Proof. intros Hc Hs. apply Z.eqb_neq in Hs. unfold ca_send_pgn. rewrite Hc, Hs. reflexivity. Qed.
Theorem guard_send_message n i c prio pgn data :
  nth_error (n_cas n) i = Some c -> c_state c <> ca_state_NORMAL ->
  ca_send_message n i prio pgn data = Raise n E_Runtime.
Proof. intros Hc Hs. apply Z.eqb_neq in Hs. unfold ca_send_message. rewrite Hc, Hs. reflexivity. Qed.
Theorem guard_send_request n i c now dp pgn dest :
  nth_error (n_cas n) i = Some c -> c_state c <> ca_state_NORMAL -> pgn <> pgn_ADDRESSCLAIM ->
  ca_send_request n i now dp pgn dest = Raise n E_Runtime.
Proof.
  intros Hc Hs Hp. apply Z.eqb_neq in Hs, Hp. unfold ca_send_request. rewrite Hc, Hs, Hp. reflexivity.
Qed.

(* T13.3: what an operational CA sends carries the address it holds *)
Theorem send_message_uses_held_address n i c a prio pgn data :
  nth_error (n_cas n) i = Some c -> c_state c = ca_state_NORMAL -> c_addr c = Some a ->
  flat (ca_send_message n i prio pgn data) =
  (n, [OTx {| f_id := mid_can_id_of prio pgn a; f_ext := true; f_fd := false; f_data := data |}], RDone 0).
Proof.
  intros Hc Hs Ha. unfold ca_send_message. rewrite Hc, Hs, Ha. cbn. reflexivity.
Qed.
Theorem send_pgn_uses_held_address n i c a now dp pf ps prio data :
  nth_error (n_cas n) i = Some c -> c_state c = ca_state_NORMAL -> c_addr c = Some a ->
  ca_send_pgn n i now dp pf ps prio data = send_pgn n now dp pf ps prio a data.
Proof.
  intros Hc Hs Ha. unfold ca_send_pgn. rewrite Hc, Hs, Ha. reflexivity.
Qed.
Theorem send_pgn_single_frame n now dp pf ps prio a data :
  len data <= 8 -> 0 <= a < 256 ->
  exists id, flat (send_pgn n now dp pf ps prio a data) = (n, [OTx {| f_id := id; f_ext := true; f_fd := false; f_data := data |}], RDone 1)
             /\ snd (mid_parse id) = a.
Proof.
  intros Hl Ha. rewrite send_pgn_short by exact Hl. eexists. split; [reflexivity|].
  rewrite T15_2_id_compose_parse. apply Z.mod_small. exact Ha.
Qed.
Lemma send_request_frame n i c now dp pgn dest :
  nth_error (n_cas n) i = Some c -> c_state c = ca_state_NORMAL \/ pgn = pgn_ADDRESSCLAIM ->
  flat (ca_send_request n i now dp pgn dest) =
  (n, [OTx {| f_id := mid_can_id_of 6 (pgn_value_of dp 234 (Z.land dest 255)) (ca_device_address c);
              f_ext := true; f_fd := false; f_data := ca_request_payload pgn |}], RDone 0).
Proof.
  intros Hc H. unfold ca_send_request, ca_request_args, ca_device_address. rewrite Hc.
  replace (negb (c_state c =? ca_state_NORMAL) && negb (pgn =? pgn_ADDRESSCLAIM)) with false
    by (destruct H as [-> | ->]; rewrite Z.eqb_refl, ?andb_false_r; reflexivity).
  rewrite send_pgn_short by discriminate. destruct (c_state c =? ca_state_NORMAL); reflexivity.
Qed.
Theorem request_for_claim_from_null n i c now dp dest :
  nth_error (n_cas n) i = Some c -> c_state c <> ca_state_NORMAL ->
  exists id, flat (ca_send_request n i now dp pgn_ADDRESSCLAIM dest) =
             (n, [OTx {| f_id := id; f_ext := true; f_fd := false; f_data := ca_request_payload pgn_ADDRESSCLAIM |}], RDone 0)
             /\ snd (mid_parse id) = addr_NULL.
Proof.
  intros Hc Hs. rewrite (send_request_frame n i c) by auto. eexists. split; [reflexivity|].
  rewrite T15_2_id_compose_parse, device_address_null_unless_normal by exact Hs. reflexivity.
Qed.
(* every frame a CA originates outside its send entry points is an address claim from the address it
   announces / holds or a cannot-claim from the null address *)
Theorem claim_frames_sources c m c' outs x :
  ca_claim c m = (c', outs) -> In x outs ->
  snd x = c_name c /\ (fst x = addr_NULL \/ fst x = c_ann c' \/ c_addr c = Some (fst x)).
Proof.
  destruct m as [sa other]. destruct (ca_claim_view c sa other) as [_|C _|_ _ _|_ _ _]; intros [= <- <-] Hin.
  - destruct Hin.
  - destruct Hin as [<-|[]]. split; [reflexivity|]. right.
    destruct C as [[_ A]|[_ A]]; [right; exact A|left; symmetry; exact A].
  - destruct Hin as [<-|[]]. split; [reflexivity|]. left. reflexivity.
  - destruct Hin as [<-|[]]. split; [reflexivity|]. right. left. reflexivity.
Qed.

(* ---------------------------------------------------------------- C14 *)
(* T14.1: request payload: 3 little-endian bytes of the PGN; decoding returns the PGN *)
Theorem request_payload_roundtrip pgn : 0 <= pgn < 16777216 ->
  ca_request_decode (ca_request_payload pgn) = pgn /\ length (ca_request_payload pgn) = 3%nat /\
  ca_request_payload pgn = [pgn mod 256; (pgn / 256) mod 256; (pgn / 65536) mod 256].
Proof.
  intros H. unfold ca_request_decode, ca_request_payload, byte_at. cbn [nth length].
  rewrite !land_255. rewrite !shiftr_div by lia. pow2_norm.
  split; [apply le24; lia|]. split; reflexivity.
Qed.
Theorem request_args dp dest sa :
  ca_request_args dp dest sa = (dp, 234, dest mod 256, 6, sa).
Proof. unfold ca_request_args. rewrite !land_255. reflexivity. Qed.

(* the outputs of _process_request of one CA (the caller has checked message_acceptable) *)
Definition request_outs (c : ca) (sa dest pgn : Z) : list out :=
  if negb (c_state c =? ca_state_NORMAL) ||
     (negb (match c_addr c with Some a => a =? dest | None => false end) && negb (dest =? addr_GLOBAL))
  then []
  else if pgn =? pgn_ADDRESSCLAIM
       then [send_address_claimed c (match c_addr c with Some a => a | None => addr_NULL end)]
       else map (fun cb => OReq cb sa dest pgn) (c_reqs c).

Lemma flat_req_cbs cbs src dst pgn n k :
  flat (req_cbs cbs src dst pgn n k) =
  let '(s, os, r) := flat (k n) in (s, map (fun cb => OReq cb src dst pgn) cbs ++ os, r).
Proof.
  induction cbs as [|cb r IH]; cbn [req_cbs map app].
  - apply no_outs.
  - cbn [flat]. rewrite IH. destruct (flat (k n)) as [[s os] r0]. reflexivity.
Qed.

Lemma flat_process_request i sa dest data n k c :
  nth_error (n_cas n) i = Some c -> (3 <= length data)%nat ->
  flat (process_request i sa dest data n k) =
  let '(s, os, r) := flat (k n) in (s, request_outs c sa dest (ca_request_decode data) ++ os, r).
Proof.
  intros Hc Hl. unfold process_request, request_outs. rewrite Hc.
  assert ((length data <? 3)%nat = false) as -> by (apply Nat.ltb_ge; exact Hl).
  destruct (negb (c_state c =? ca_state_NORMAL) || _).
  - apply no_outs.
  - destruct (ca_request_decode data =? pgn_ADDRESSCLAIM).
    + reflexivity.
    + apply flat_req_cbs.
Qed.

(* T14.2: dispatch — every CA from index i on, in order: those that accept the destination answer as
   request_outs says, the others are skipped; CAs are not changed *)
Fixpoint fanout_outs (cas : list ca) (sa dest pgn : Z) : list out :=
  match cas with
  | [] => []
  | c :: r => (if ca_acceptable c dest then request_outs c sa dest pgn else []) ++ fanout_outs r sa dest pgn
  end.

Lemma flat_request_fanout sa dest data : (3 <= length data)%nat ->
  forall cnt i n k, (i + cnt = length (n_cas n))%nat ->
  flat (request_fanout i cnt sa dest data n k) =
  let '(s, os, r) := flat (k n) in (s, fanout_outs (skipn i (n_cas n)) sa dest (ca_request_decode data) ++ os, r).
Proof.
  intros Hl. induction cnt as [|c IH]; intros i n k Hi.
  - cbn [request_fanout]. rewrite skipn_all2 by lia. apply no_outs.
  - cbn [request_fanout].
    destruct (nth_error (n_cas n) i) as [ca0|] eqn:E.
    + rewrite (skipn_nth_error _ _ _ E). cbn [fanout_outs].
      destruct (ca_acceptable ca0 dest).
      * rewrite (flat_process_request i sa dest data n _ ca0 E Hl).
        rewrite IH by lia. destruct (flat (k n)) as [[s os] r]. rewrite app_assoc. reflexivity.
      * rewrite IH by lia. destruct (flat (k n)) as [[s os] r]. reflexivity.
    + exfalso. apply nth_error_None in E. lia.
Qed.

Theorem no_answer_without_address c sa dest pgn :
  c_state c <> ca_state_NORMAL -> (if ca_acceptable c dest then request_outs c sa dest pgn else []) = [].
Proof. intros H. apply Z.eqb_neq in H. unfold ca_acceptable. rewrite H. reflexivity. Qed.
Theorem no_answer_for_foreign_destination c a sa dest pgn :
  c_addr c = Some a -> a <> dest -> dest <> addr_GLOBAL ->
  (if ca_acceptable c dest then request_outs c sa dest pgn else []) = [].
Proof.
  intros Ha Hn Hg. apply Z.eqb_neq in Hn, Hg. unfold ca_acceptable. rewrite Ha, Hn, Hg.
  destruct (negb (c_state c =? ca_state_NORMAL)); reflexivity.
Qed.
Theorem answer_of_owner c a sa dest pgn :
  c_state c = ca_state_NORMAL -> c_addr c = Some a -> (a = dest \/ dest = addr_GLOBAL) ->
  (if ca_acceptable c dest then request_outs c sa dest pgn else []) =
  if pgn =? pgn_ADDRESSCLAIM then [send_address_claimed c a] else map (fun cb => OReq cb sa dest pgn) (c_reqs c).
Proof.
  intros Hs Ha Hd. unfold ca_acceptable, request_outs. rewrite Hs, Ha. cbn [Z.eqb negb orb].
  rewrite Z.eqb_refl. cbn [negb orb].
  destruct Hd as [-> | ->]; rewrite Z.eqb_refl, ?andb_false_r; [destruct (dest =? addr_GLOBAL)|]; reflexivity.
Qed.

(* T14.3 end to end: the request frame built by send_request, fed to notify, is dispatched as above *)
Theorem notify_request n now sa dest data :
  0 <= dest < 256 -> 0 <= sa < 256 -> accepts n dest = true -> (3 <= length data)%nat ->
  flat (notify n now (mid_can_id_of 6 (pgn_value_of 0 234 dest) sa) data) =
  (n, fanout_outs (n_cas n) sa dest (ca_request_decode data), RDone 0).
Proof.
  intros Hd Hs Hacc Hl. rewrite notify_req by assumption.
  rewrite (flat_request_fanout sa dest data Hl (length (n_cas n)) 0 n) by reflexivity.
  cbn [flat skipn]. rewrite app_nil_r. reflexivity.
Qed.

Example request_example :
  let n0 := set_cas (init_node 1 None None) [mk_ca 5 (Some 32) true; mk_ca 6 (Some 33) true] in
  let n1 := set_ca n0 0 (with_ca_reqs (mk_ca 5 (Some 32) true) [7; 8]) in
  fouts (notify n1 0 (mid_can_id_of 6 (pgn_value_of 0 234 32) 16) (ca_request_payload 65226)) =
  [OReq 7 16 32 65226; OReq 8 16 32 65226].
Proof. vm_compute. reflexivity. Qed.

(* T14.3 closed loop: what send_request of an operational CA on one node puts on the bus, handed to ANOTHER node that
   accepts the destination, is dispatched there with the requester's held address, the destination and exactly the PGN
   asked for — for every PGN of up to 24 bits and every destination, global included *)
Theorem request_closed_loop A i c a now pgn dest B t :
  nth_error (n_cas A) i = Some c -> c_state c = ca_state_NORMAL -> c_addr c = Some a -> 0 <= a < 256 ->
  0 <= dest < 256 -> 0 <= pgn < 16777216 -> accepts B dest = true ->
  exists f, flat (ca_send_request A i now 0 pgn dest) = (A, [OTx f], RDone 0) /\ f_ext f = true /\ f_fd f = false /\
            flat (notify B t (f_id f) (f_data f)) = (B, fanout_outs (n_cas B) a dest pgn, RDone 0).
Proof.
  intros Hc Hs Ha Har Hd Hp Hacc.
  destruct (request_payload_roundtrip pgn Hp) as (Edec & Elen & _).
  rewrite (send_request_frame A i c) by auto. eexists. split; [reflexivity|].
  cbn [f_ext f_fd f_id f_data]. split; [reflexivity|]. split; [reflexivity|].
  assert (Ea : ca_device_address c = a) by (unfold ca_device_address; rewrite Hs, Ha; reflexivity).
  rewrite land_255, Z.mod_small, Ea by exact Hd.
  rewrite notify_request, Edec; [reflexivity|assumption..|rewrite Elen; lia].
Qed.

Example request_closed_loop_example :
  let A := set_cas (init_node 1 None None) [mk_ca 9 (Some 16) true] in
  let B0 := set_cas (init_node 1 None None) [mk_ca 5 (Some 32) true; mk_ca 6 (Some 33) true] in
  let B := set_ca B0 0 (with_ca_reqs (mk_ca 5 (Some 32) true) [7; 8]) in
  match fouts (ca_send_request A 0 0 0 65226 32) with
  | [OTx f] => fouts (notify B 0 (f_id f) (f_data f)) = [OReq 7 16 32 65226; OReq 8 16 32 65226]
  | _ => False
  end.
Proof. vm_compute. reflexivity. Qed.
