(* TimeoutProofs.v — C06 (J1939-21): lost frames / vanished peer: exact payload or nothing, bounded
   give-up with abort where the standard asks for it, recovery. *)
From J1939 Require Import Base CodecGlue Model21.
From J1939.gen Require Import Codec Tp21Gen CaGen.
From J1939P Require Import CodecProofs Flat Steps21 Tp21Seg Tp21Resp Tp21Orig.

Definition is_delivery (o : out) : bool := match o with OCb _ _ _ _ _ => true | _ => false end.
Definition no_delivery (os : list out) : Prop := forallb (fun o => negb (is_delivery o)) os = true.
Lemma no_delivery_app os1 os2 : no_delivery os1 -> no_delivery os2 -> no_delivery (os1 ++ os2).
Proof. unfold no_delivery. intros H1 H2. rewrite forallb_app, H1, H2. reflexivity. Qed.

Lemma dt_incomplete_no_delivery prio sa dest seqno rest now n b :
  tget (n_rcv n) (tp21_hash sa dest) = Some b -> len (r_data b ++ rest) < r_size b ->
  no_delivery (fouts (process_tp_dt prio sa dest (seqno :: rest) now n)) /\
  exists b', tget (n_rcv (fnode (process_tp_dt prio sa dest (seqno :: rest) now n))) (tp21_hash sa dest) = Some b' /\
             r_data b' = r_data b ++ rest /\ r_size b' = r_size b.
Proof.
  intros Hget Hlt. unfold fouts, fnode.
  destruct (Z.eq_dec dest addr_GLOBAL) as [Hd|Hd]; [|destruct (Z_lt_le_dec seqno (r_next b)) as [Hq|Hq]].
  1,2: rewrite (dt_quiet prio sa dest seqno rest now n b Hget Hlt) by tauto.
  3: destruct (r_maxrec b) as [mr|] eqn:Hm;
       [rewrite (dt_border prio sa dest seqno rest now n b Hget mr) by assumption
       |rewrite (dt_border_nomax prio sa dest seqno rest now n b Hget) by assumption].
  all: cbn [flat fst snd]; (split; [reflexivity|]); eexists; nsimpl; rewrite tget_tset_same; repeat split.
Qed.

(* T06.1 exact payload or nothing: DT frames in any order, with any sequence numbers, at any instants, that together carry
   fewer bytes than announced deliver nothing; with a frame lost, the 7*(n-1) bytes of the others never reach the size *)
Fixpoint feed_any (prio sa dest : Z) (frames : list (Z * list Z * Z)) (n : node) : node * list out :=
  match frames with
  | [] => (n, [])
  | (seqno, rest, now) :: fs =>
      let '(n1, o1, _) := flat (process_tp_dt prio sa dest (seqno :: rest) now n) in
      let '(n2, o2) := feed_any prio sa dest fs n1 in (n2, o1 ++ o2)
  end.

Theorem lost_packet_never_delivers prio sa dest : forall frames n b,
  tget (n_rcv n) (tp21_hash sa dest) = Some b ->
  len (r_data b) + fold_right (fun f acc => len (snd (fst f)) + acc) 0 frames < r_size b ->
  no_delivery (snd (feed_any prio sa dest frames n)).
Proof.
  induction frames as [|[[seqno rest] now] fs IH]; intros n b Hget Hlt; [reflexivity|].
  cbn [feed_any]. cbn [fold_right fst snd] in Hlt.
  assert (Hl : len (r_data b ++ rest) = len (r_data b) + len rest) by (unfold len; rewrite app_length; lia).
  assert (Hfs : 0 <= fold_right (fun f acc => len (snd (fst f)) + acc) 0 fs).
  { clear. induction fs as [|f r IH]; cbn; [lia|]. unfold len at 1. lia. }
  destruct (dt_incomplete_no_delivery prio sa dest seqno rest now n b Hget ltac:(lia)) as (Hnd & b' & Hb' & Hd' & Hs').
  unfold fouts, fnode in *.
  destruct (flat (process_tp_dt prio sa dest (seqno :: rest) now n)) as [[n1 o1] r1]. cbn [fst snd] in *.
  specialize (IH n1 b' Hb'). rewrite Hd', Hs' in IH. specialize (IH ltac:(lia)).
  destruct (feed_any prio sa dest fs n1) as [n2 o2]. exact (no_delivery_app _ _ Hnd IH).
Qed.

(* the premise of lost_packet_never_delivers for m of the packets of p, at least one missing *)
Theorem proper_subset_too_short p (m : nat) :
  (8 < length p)%nat -> (m < npk (length p))%nat -> 7 * Z.of_nat m < len p.
Proof. intros _. apply npk_short. Qed.

(* the time limits generated from j1939_21.py (in microseconds) are those of J1939-21 *)
Theorem timeouts_within_standard :
  tp21_T1 = 750000 /\ tp21_T2 = 1250000 /\ tp21_T3 = 1250000 /\ tp21_Th = 500000 /\ tp21_Tb = 50000.
Proof. repeat split; reflexivity. Qed.

(* T06.4: release at the deadline; the peer gets a connection abort (reason 3 = timeout) exactly when the transfer was
   connection-mode *)
Theorem rcv_timeout_releases key now nw n k b :
  tget (n_rcv n) key = Some b -> r_deadline b <> 0 -> r_deadline b <= now ->
  flat (rcv_pass [key] now nw n k) =
  let n' := set_rcv n (tdel (n_rcv n) key) in
  let '(s, os, r) := flat (k n' nw) in
  (s, (if r_dst b =? addr_GLOBAL then [] else [OTx (tp21_abort (r_dst b) (r_src b) tp21_reason_TIMEOUT (r_pgn b))]) ++ os, r).
Proof.
  intros Hget H0 Hle. exact (rcv_pass_due key [] now nw n k b Hget H0 Hle).
Qed.

Theorem rcv_before_deadline key now nw n k b :
  tget (n_rcv n) key = Some b -> now < r_deadline b -> 0 <= now ->
  rcv_pass [key] now nw n k = k n (if nw >? r_deadline b then r_deadline b else nw).
Proof.
  intros Hget Hlt H0. exact (rcv_pass_wait key [] now nw n k b Hget ltac:(lia) Hlt).
Qed.

(* T06.4 for the originator waiting for a CTS *)
Theorem snd_timeout_releases key now nw n k b :
  tget (n_snd n) key = Some b -> s_state b = ST_WAITING_CTS -> s_deadline b <> 0 -> s_deadline b <= now ->
  flat (snd_pass [key] now nw n k) =
  let n' := set_snd n (tdel (n_snd n) key) in
  let '(s, os, r) := flat (k n' nw) in
  (s, OTx (tp21_abort (s_src b) (s_dst b) tp21_reason_TIMEOUT (s_pgn b)) :: os, r).
Proof.
  intros Hget Hst H0 Hle. exact (snd_pass_due_waitcts key [] now nw n k b Hget H0 Hle Hst).
Qed.

(* T06.6: an abort from the peer while waiting for its CTS finishes the session (removed by the next pass, no abort back) *)
Theorem peer_abort_finishes n b prio sa dest reason pgn now :
  tget (n_snd n) (tp21_hash dest sa) = Some b -> s_state b = ST_WAITING_CTS -> 0 <= pgn < 16777216 -> 0 <= reason < 255 ->
  flat (process_tp_cm prio sa dest (f_data (tp21_abort sa dest reason pgn)) now n) =
  (set_snd n (tset (n_snd n) (tp21_hash dest sa) (upd_sbuf b ST_FINISHED now (s_next b))), [], RDone 0).
Proof.
  intros Hget Hst Hp Hr. rewrite cm_abort; [|apply le_n|reflexivity].
  cbv zeta. rewrite Hget, Hst. reflexivity.
Qed.
Theorem finished_session_removed key now nw n k b :
  tget (n_snd n) key = Some b -> s_state b = ST_FINISHED -> s_deadline b <> 0 -> s_deadline b <= now ->
  snd_pass [key] now nw n k = k (set_snd n (tdel (n_snd n) key)) nw.
Proof.
  intros Hget Hst H0 Hle. apply (snd_pass_due_other key [] now nw n k b Hget H0 Hle); rewrite Hst; discriminate.
Qed.

(* T06.7: after the release the pair's key is free again, which is the hypothesis of the C01 role theorems *)
Theorem released_key_is_free {V} (t : tbl V) key : tnodup t -> tget (tdel t key) key = None.
Proof. apply tget_tdel_same. Qed.
