(* NoOversleep22.v — C06/C09/C11 (J1939-22): the FD job thread never sleeps past a deadline: after one pass of the FD
   transport layer the wake-up time handed on is not later than the deadline of ANY receive session, multi-PG buffer or
   originator session still in its table. *)
From J1939 Require Import Base CodecGlue Model21 Model22.
From J1939.gen Require Import Codec Tp21Gen CaGen Tp22Gen.
From J1939P Require Import CodecProofs Flat MpgProofs PoolProofs Steps22 RobustProofs RobustProofs22.
Local Arguments Z.add : simpl never.
Local Arguments Z.sub : simpl never.
Local Arguments Z.mul : simpl never.

(* A pass over distinct keys ends with a wake-up time that covers every entry it has left in its table, and has left the rest
   of the node alone: inductions with the step lemmas of RobustProofs22.v, as in NoOversleep.v. *)
Lemma rcv_pass22_cover P : forall keys now nw m k,
  NoDup keys -> tnodup (f_rcv m) ->
  (forall m' nw', but_rcv m' = but_rcv m -> covers (before q_deadline) (f_rcv m) nw keys (f_rcv m') nw' -> post22 P (k m' nw')) ->
  post22 P (rcv_pass22 keys now nw m k).
Proof.
  induction keys as [|key ks IH]; intros now nw m k Hnd Htn Hk; [apply Hk; [reflexivity|apply covers_nil]|].
  inversion Hnd as [|? ? Hni Hnd']; subst. apply rcv_pass22_step. intros m1 nw1 E1 S1 _.
  apply IH; [exact Hnd'|apply S1, Htn|]. intros m' nw' E' C.
  apply Hk; [rewrite E'; exact E1|exact (covers_cons (before_mono q_deadline) S1 Htn Hni C)].
Qed.

Lemma mpg_pass_cover P : forall keys now nw m k,
  NoDup keys -> tnodup (f_mpg m) ->
  (forall m' nw', but_mpg m' = but_mpg m -> covers (fun nw b => nw <= m_deadline b) (f_mpg m) nw keys (f_mpg m') nw' ->
     post22 P (k m' nw')) ->
  post22 P (mpg_pass keys now nw m k).
Proof.
  induction keys as [|key ks IH]; intros now nw m k Hnd Htn Hk; [apply Hk; [reflexivity|apply covers_nil]|].
  inversion Hnd as [|? ? Hni Hnd']; subst. apply mpg_pass_step. intros m1 nw1 E1 S1 _.
  apply IH; [exact Hnd'|apply S1, Htn|]. intros m' nw' E' C.
  apply Hk; [rewrite E'; exact E1|]. apply (covers_cons (fun a a' b L H => Z.le_trans _ _ _ L H) S1 Htn Hni C).
Qed.

Lemma snd_pass22_cover P : forall keys now nw m k,
  NoDup keys -> tnodup (f_snd m) ->
  (forall m' nw', but_snd m' = but_snd m -> covers (before t_deadline) (f_snd m) nw keys (f_snd m') nw' -> post22 P (k m' nw')) ->
  post22 P (snd_pass22 keys now nw m k).
Proof.
  induction keys as [|key ks IH]; intros now nw m k Hnd Htn Hk; [apply Hk; [reflexivity|apply covers_nil]|].
  inversion Hnd as [|? ? Hni Hnd']; subst. apply snd_pass22_step. intros m1 nw1 E1 S1 _.
  apply IH; [exact Hnd'|apply S1, Htn|]. intros m' nw' E' C.
  apply Hk; [rewrite E'; exact E1|exact (covers_cons (before_mono t_deadline) S1 Htn Hni C)].
Qed.

(* ---------------------------------------------------------------- the FD transport pass *)
Definition covered22 (m : node22) (nw : Z) : Prop :=
  (forall key b, tget (f_rcv m) key = Some b -> q_deadline b <> 0 -> nw <= q_deadline b) /\
  (forall key b, tget (f_mpg m) key = Some b -> nw <= m_deadline b) /\
  (forall key b, tget (f_snd m) key = Some b -> t_deadline b <> 0 -> nw <= t_deadline b).

(* 5000000: the pass starts from next_wakeup = now + 5.0 s (async_job_thread); times are in microseconds *)
Theorem dll_job22_never_oversleeps P m now k :
  tnodup (f_rcv m) -> tnodup (f_mpg m) -> tnodup (f_snd m) ->
  (forall m' nw', nw' <= now + 5000000 -> covered22 m' nw' -> post22 P (k m' nw')) ->
  post22 P (dll_job22 m now k).
Proof.
  intros Hr Hm Hs Hk. unfold dll_job22.
  apply rcv_pass22_cover; [exact Hr|exact Hr|]. intros m1 nw1 [= S1 M1 _ _] C1.
  apply mpg_pass_cover; [unfold tnodup in Hm; rewrite M1; exact Hm|rewrite M1; exact Hm|]. intros m2 nw2 [= S2 R2 _ _] C2.
  apply snd_pass22_cover; [unfold tnodup in Hs; rewrite S2, S1; exact Hs|rewrite S2, S1; exact Hs|]. intros m3 nw3 [= R3 M3 _ _] C3.
  pose proof (proj1 C1) as L1. pose proof (proj1 C2) as L2. pose proof (proj1 C3) as L3.
  apply Hk; [lia|]. split; [|split].
  - intros key b Hg. rewrite R3, R2 in Hg. apply (before_mono q_deadline nw1); [lia|exact (covers_all C1 Hg)].
  - intros key b Hg. rewrite M3 in Hg. exact (Z.le_trans _ _ _ L3 (covers_all C2 Hg)).
  - exact (covers_all C3).
Qed.

Corollary dll_job22_wakeup_covers_every_deadline m now :
  tnodup (f_rcv m) -> tnodup (f_mpg m) -> tnodup (f_snd m) ->
  match flat22 (dll_job22 m now (fun m' nw' => Done m' nw')) with
  | (m', _, RDone nw') => nw' <= now + 5000000 /\ covered22 m' nw'
  | (_, _, RRaise _) => True
  end.
Proof.
  intros Hr Hm Hs.
  apply (dll_job22_never_oversleeps (fun m' nw' => nw' <= now + 5000000 /\ covered22 m' nw') m now
           (fun m' nw' => Done m' nw') Hr Hm Hs).
  intros m' nw' L C. split; assumption.
Qed.
