(* Tp21Orig.v — T01.4 / T09.1: the J1939-21 stack as ORIGINATOR of a connection-mode transfer:
   what send_pgn creates, what a CTS does, and exactly which DT frames a job pass then emits. *)
From J1939 Require Import Base CodecGlue Model21.
From J1939.gen Require Import Codec Tp21Gen CaGen.
From J1939P Require Import CodecProofs Flat Steps21 Tp21Seg Tp21Resp.

Fixpoint dts (src dst : Z) (data : list Z) (x : Z) (g : nat) : list out :=
  match g with
  | O => []
  | S g' => OTx (tp21_dt src dst (dt_payload data x)) :: dts src dst data (x + 1) g'
  end.

(* indices: [s_next] and [s_waitcts] count packets from 0, the sequence number in the frame is index + 1; [s_waitcts]
   holds the index of the LAST packet of the window, so [Some (x + g)] is a window of g + 1 packets *)
Lemma burst_window key now : forall (g : nat) fuel n b x k,
  tget (n_snd n) key = Some b -> n_cmdt_iv n = None ->
  s_next b = x -> s_waitcts b = Some (x + Z.of_nat g) -> x + Z.of_nat g < s_num b -> (g < fuel)%nat ->
  flat (cts_burst fuel key now n k) =
  pre (dts (s_src b) (s_dst b) (s_data b) x (S g))
      (flat (k (set_snd n (tset (n_snd n) key (upd_sbuf b ST_WAITING_CTS (now + tp21_T3) (x + Z.of_nat g + 1)))))).
Proof.
  induction g as [|g IH]; intros [|f] n b x k Hget Hiv <- Hw Hlt Hf; try lia.
  - rewrite Z.add_0_r in *. rewrite (cts_burst_last f key now n k b Hget Hlt Hw).
    unfold stamp_nb. rewrite Hiv. reflexivity.
  - rewrite (cts_burst_next f key now n k b Hget _ ltac:(lia) Hw ltac:(lia) Hiv).
    rewrite (IH f _ (upd_sbuf b (s_state b) (s_deadline b) (s_next b + 1)) (s_next b + 1));
      [|nsimpl; apply tget_tset_same|exact Hiv|reflexivity|cbn [upd_sbuf s_waitcts]; rewrite Hw; f_equal; lia|cbn [upd_sbuf s_num]; lia|lia].
    nsimpl. rewrite tset_tset_same, pre_app.
    replace (s_next b + 1 + Z.of_nat g) with (s_next b + Z.of_nat (S g)) by lia. reflexivity.
Qed.

Lemma cts_fields sa dest num nextp pgn :
  0 <= pgn < 16777216 ->
  let d := f_data (tp21_cts sa dest num nextp pgn) in
  length d = 8%nat /\ tp21_cm_control d = tp21_cm_CTS /\ tp21_cm_pgn d = pgn /\
  tp21_cts_num_packages d = num /\ tp21_cts_next_package_number d = nextp - 1.
Proof.
  intros Hp. cbn [tp21_cts f_data]. unfold tp21_cm_control, tp21_cm_pgn, tp21_cts_num_packages,
    tp21_cts_next_package_number, byte_at. cbn [nth length].
  rewrite !land_255. rewrite !shiftr_div by lia. pow2_norm.
  repeat split; try reflexivity.
  apply le24; lia.
Qed.

Section Originator.
  Variables (sa dest : Z).
  Let h := tp21_hash sa dest.

  (* T01.4: CTS(g, x+1) for a session waiting at packet x (0-based) opens the window x .. x+g-1 *)
  Theorem cts_opens_window n b prio pgn g x now :
    tget (n_snd n) h = Some b -> s_next b = x -> 0 <= x -> 1 <= g -> x + g <= s_num b -> 0 <= pgn < 16777216 ->
    flat (process_tp_cm prio dest sa (f_data (tp21_cts dest sa g (x + 1) pgn)) now n) =
    (wake (set_snd n (tset (n_snd n) h
        (with_waitcts (upd_sbuf b ST_SENDING_IN_CTS (Z.max now (s_nb b)) x) (Some (x + g - 1))))), [], RDone 0).
  Proof.
    intros Hget Hx Hx0 Hg Hle Hp.
    destruct (cts_fields dest sa g (x + 1) pgn Hp) as (L & C & P & N & X).
    rewrite (cm_cts prio dest sa _ now n (Nat.eq_le_incl _ _ (eq_sym L)) C). cbv zeta. fold h.
    rewrite Hget, N, X, Hx, (eqb_false g 0), (gtb_false g (s_num b)) by lia.
    replace (x + 1 - 1) with x by lia. rewrite gtb_false by lia. reflexivity.
  Qed.

  Theorem cts_hold n b prio pgn nextp now :
    tget (n_snd n) h = Some b -> 0 <= pgn < 16777216 ->
    flat (process_tp_cm prio dest sa (f_data (tp21_cts dest sa 0 nextp pgn)) now n) =
    (wake (set_snd n (tset (n_snd n) h (upd_sbuf b (s_state b) (now + tp21_Th) (s_next b)))), [], RDone 0).
  Proof.
    intros Hget Hp.
    destruct (cts_fields dest sa 0 nextp pgn Hp) as (L & C & P & N & X).
    rewrite (cm_cts prio dest sa _ now n (Nat.eq_le_incl _ _ (eq_sym L)) C). cbv zeta. fold h.
    rewrite Hget, N. reflexivity.
  Qed.

  (* T01.4: the job pass after cts_opens_window (there with g+1 packets granted): exactly those packets, then the session
     waits again *)
  Theorem window_burst n b g x now nw k :
    tget (n_snd n) h = Some b -> n_cmdt_iv n = None ->
    s_state b = ST_SENDING_IN_CTS -> s_next b = x -> s_waitcts b = Some (x + Z.of_nat g) ->
    x + Z.of_nat g < s_num b -> 0 <= x -> s_deadline b <> 0 -> s_deadline b <= now ->
    flat (snd_pass [h] now nw n k) =
    let b' := upd_sbuf b ST_WAITING_CTS (now + tp21_T3) (x + Z.of_nat g + 1) in
    let nw' := if nw >? now + tp21_T3 then now + tp21_T3 else nw in
    let '(s, os, r) := flat (k (set_snd n (tset (n_snd n) h b')) nw') in
    (s, dts (s_src b) (s_dst b) (s_data b) x (S g) ++ os, r).
  Proof.
    intros Hget Hiv Hst Hx Hw Hlt Hx0 Hd0 Hdl.
    rewrite (snd_pass_due_incts h [] now nw n k b Hget Hd0 Hdl Hst).
    rewrite (burst_window h now g _ n b x) by (try assumption; lia).
    rewrite (after_burst_keep h [] now nw k (set_snd n _) _ (tget_tset_same _ _ _)) by (left; discriminate).
    nsimpl. rewrite tset_tset_same. reflexivity.
  Qed.

  (* T09.1: no data packet without a CTS *)
  Theorem no_dt_without_cts n b now nw k :
    tget (n_snd n) h = Some b -> s_state b = ST_WAITING_CTS -> 0 <= now < s_deadline b ->
    flat (snd_pass [h] now nw n k) =
    flat (k n (if nw >? s_deadline b then s_deadline b else nw)).
  Proof.
    intros Hget _ Hdl. exact (f_equal flat (snd_pass_wait h [] now nw n k b Hget ltac:(lia) ltac:(lia))).
  Qed.
End Originator.

Lemma pgn_is_pdu1_ltb pf : 0 <= pf -> pgn_is_pdu1 pf = (pf <? 240).
Proof. intros H. unfold pgn_is_pdu1. destruct (Z.geb pf 0 && Z.leb pf 239) eqn:E; lia. Qed.
Lemma pgn_is_pdu2_of_leb dp pf ps : 0 <= pf < 256 -> pgn_is_pdu2_of dp pf ps = (240 <=? pf).
Proof.
  intros H. unfold pgn_is_pdu2_of, pgn_mk, pgn_is_pdu2. rewrite land_255, Z.mod_small by lia.
  destruct (Z.geb pf 240 && Z.leb pf 255) eqn:E; lia.
Qed.

(* T01.4: the RTS of send_pgn: window limit min(max_cmdt_packets, n), PGN with PS cleared *)
Theorem send_pgn_rts n now dp pf ps prio sa data :
  8 < len data -> 0 <= pf < 240 -> 0 <= ps < 255 -> 0 <= dp < 2 ->
  tget (n_snd n) (tp21_hash sa ps) = None ->
  let size := len data in
  let num := num_packets size in
  let pv := dp * 65536 + pf * 256 in
  flat (send_pgn n now dp pf ps prio sa data) =
  (wake (set_snd n (tset (n_snd n) (tp21_hash sa ps)
      (mk_sbuf pv prio size num data ST_WAITING_CTS (now + tp21_T3) sa ps (Some 0)))),
   [OTx (tp21_rts sa ps prio pv size num (Z.min (n_maxp n) num))], RDone 1).
Proof.
  intros Hlen Hpf Hps Hdp Hnone size num pv. unfold send_pgn.
  unfold pgn_mk. rewrite !land_255, land_1.
  rewrite !Z.mod_small by lia.
  assert ((len data <=? 8) = false) as -> by lia.
  rewrite pgn_is_pdu2_of_leb by lia.
  assert ((ps =? addr_GLOBAL) || (240 <=? pf) = false) as -> by (unfold addr_GLOBAL; lia).
  rewrite (tmem_none _ _ Hnone), (eqb_false ps addr_GLOBAL) by (unfold addr_GLOBAL; lia).
  rewrite pgn_value_arith by lia. replace (dp * 65536 + pf * 256 + 0) with pv by (unfold pv; lia).
  cbn [flat]. reflexivity.
Qed.

(* T10.4: send_pgn while a transfer on the pair is in progress is refused (returns False) and changes nothing *)
Theorem send_pgn_busy n now dp pf ps prio sa data b :
  8 < len data ->
  let dest := if (ps =? addr_GLOBAL) || pgn_is_pdu2_of 0 pf ps then addr_GLOBAL else ps in
  tget (n_snd n) (tp21_hash sa dest) = Some b ->
  flat (send_pgn n now dp pf ps prio sa data) = (n, [], RDone 0).
Proof.
  intros Hlen dest Hget. unfold send_pgn.
  destruct (pgn_mk dp pf ps) as [[pdp ppf] pps].
  assert ((len data <=? 8) = false) as -> by lia.
  fold dest. rewrite (tmem_get _ _ _ Hget). reflexivity.
Qed.

Example originator_example :
  let p := map Z.of_nat (seq 0 30) in
  let n0 := init_node 3 None None in
  let n1 := fnode (send_pgn n0 0 0 208 32 6 16 p) in
  let n2 := fnode (process_tp_cm 7 32 16 (f_data (tp21_cts 32 16 2 1 53248)) 5 n1) in
  length (fouts (job_iter n2 6)) = 2%nat.
Proof. vm_compute. reflexivity. Qed.
