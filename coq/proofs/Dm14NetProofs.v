(* Dm14NetProofs.v — C17/C18 end to end on the composed DM14 model (Dm14Net.v): the requesting side (Dm14Query) against the
   serving side (DM14Server + MemoryAccess + the serving application), message by message.
   For EVERY content of the data (the bytes are universally quantified; they never decide a branch) and every object
   size / signedness / raw flag: a read returns exactly the server application's bytes (or the integers they encode), a
   write hands exactly the little-endian bytes of the values to the server application; with and without seed and key;
   afterwards both sides are idle (state IDLE, no requester remembered, queues empty, the original subscriptions), and
   what the requester sent is exactly what the computation had fed to the server plus the closing DM14 (the fixpoint is
   consistent).  A requester with the WRONG key gets the error 0x1003 / EDCP 7 raised, the application is neither asked nor
   notified, no data moves, and both sides are idle again.
   The addresses, the pointer and the seed are concrete in each statement (they are compared with themselves along the
   way, which evaluation cannot decide for variables); several instances are proved, incl. addresses 0 and 254, pointers 0 and 0xFFFFFFFF. *)
From J1939 Require Import Base Dm14Model Dm14Cli Dm14Srv Dm14Net.
Open Scope Z_scope.

Definition idle_srv (s : srv) : Prop :=
  a_state s = D_IDLE /\ v_state s = R_IDLE /\ v_sa s = None /\ v_addr s = None /\ v_busy s = false /\ subs s = [CB_LISTEN] /\ v_queue s = [].
Definition idle_cli (q : cli) : Prop := q_state q = Q_IDLE /\ q_dq q = [] /\ q_xq q = [] /\ q_subs q = [].
Definition asked_or_notified (os : list sout) : bool :=
  existsb (fun o => match o with SNotify => true | SProceedFn _ _ _ _ _ _ _ _ _ => true | _ => false end) os.
Definition data_sent (os : list sout) : bool := existsb (fun o => match o with SSend 215 _ _ _ => true | _ => false end) os.

Record setup := { u_cfg : cfg; u_seeds : list Z; u_ca : Z; u_sa : Z; u_direct : Z; u_addr : Z }.
Definition xor_key (sd : Z) : Z := Z.lxor sd 65535.
Definition cfg_plain : cfg := {| c_seedsec := false; c_hasproceed := true; c_key := fun sd => sd |}.
Definition cfg_plain_noproceed : cfg := {| c_seedsec := false; c_hasproceed := false; c_key := fun sd => sd |}.
Definition cfg_key : cfg := {| c_seedsec := true; c_hasproceed := true; c_key := xor_key |}.
Definition setups : list setup :=
  [ {| u_cfg := cfg_plain; u_seeds := []; u_ca := 249; u_sa := 212; u_direct := 1; u_addr := 2449473539 |};
    {| u_cfg := cfg_plain; u_seeds := []; u_ca := 0; u_sa := 254; u_direct := 0; u_addr := 0 |};
    {| u_cfg := cfg_plain_noproceed; u_seeds := []; u_ca := 49; u_sa := 0; u_direct := 1; u_addr := 4294967295 |};
    {| u_cfg := cfg_key; u_seeds := [4660]; u_ca := 249; u_sa := 212; u_direct := 1; u_addr := 2449473539 |};
    {| u_cfg := cfg_key; u_seeds := [1]; u_ca := 0; u_sa := 167; u_direct := 0; u_addr := 4294967295 |};
    {| u_cfg := cfg_key; u_seeds := []; u_ca := 128; u_sa := 0; u_direct := 1; u_addr := 16 |} ].

Definition read_ok (u : setup) (size : Z) (signed raw : bool) (data : list Z) : Prop :=
  let t := txn_read (u_cfg u) (c_key (u_cfg u)) (init_srv (u_seeds u) []) init_cli (u_ca u) (u_sa u) (u_direct u) (u_addr u) (zlen data) size signed raw data in
  t_ret t = CRValues (if raw then data else bytes_to_values (Z.to_nat size) signed data) /\
  idle_cli (t_cli t) /\ idle_srv (t_srv t) /\ t_srv_ret t = RetNone /\
  (exists closing, heard_from_cli (u_ca u) (u_sa u) (t_cli_sent t) = t_assumed t ++ [closing]) /\
  data_sent (t_srv_sent t) = true.

(* the write, on the bytes the values are converted to (everything after the conversion depends on the bytes only) *)
Lemma cli_write_is_b haskey keyf s dest direct addr values size during :
  cli_write haskey keyf s dest direct addr values size during =
  cli_write_b haskey keyf s dest direct addr (zlen values) size (values_to_bytes (Z.to_nat size) values) during.
Proof. reflexivity. Qed.
Lemma txn_write_is_b c ckey s0 q0 ca sa direct addr values size :
  txn_write c ckey s0 q0 ca sa direct addr values size =
  txn_write_b c ckey s0 q0 ca sa direct addr (zlen values) size (values_to_bytes (Z.to_nat size) values).
Proof. reflexivity. Qed.

Definition write_b_ok (u : setup) (objcnt size : Z) (bytes : list Z) : Prop :=
  let t := txn_write_b (u_cfg u) (c_key (u_cfg u)) (init_srv (u_seeds u) []) init_cli (u_ca u) (u_sa u) (u_direct u) (u_addr u) objcnt size bytes in
  t_ret t = CRNone /\ t_srv_ret t = RetData bytes /\
  idle_cli (t_cli t) /\ idle_srv (t_srv t) /\
  (exists closing, heard_from_cli (u_ca u) (u_sa u) (t_cli_sent t) = t_assumed t ++ [closing]).
Definition write_ok (u : setup) (size : nat) (values : list Z) : Prop :=
  let t := txn_write (u_cfg u) (c_key (u_cfg u)) (init_srv (u_seeds u) []) init_cli (u_ca u) (u_sa u) (u_direct u) (u_addr u) values (Z.of_nat size) in
  t_ret t = CRNone /\ t_srv_ret t = RetData (values_to_bytes size values) /\
  idle_cli (t_cli t) /\ idle_srv (t_srv t) /\
  (exists closing, heard_from_cli (u_ca u) (u_sa u) (t_cli_sent t) = t_assumed t ++ [closing]).

(* [read_c_ok], [write_b_ok] and [refused] stay folded until [vm_compute]: the transaction is then the value of one `let', which
   the kernel evaluates once; unfolded first, every conjunct carries its own copy and is evaluated on its own. *)
Ltac all_setups :=
  unfold setups; intros u Hu; cbn [In] in Hu;
  repeat (destruct Hu as [Hu|Hu]; [subst u|]); try contradiction.
Ltac by_eval := vm_compute; repeat split; try reflexivity; try (eexists; reflexivity).

(* ---------------------------------------------------------------- read: 1..7 bytes, any content *)
(* [read_c_ok conv u size signed raw data] is the proposition [read_ok u size signed raw data] with ONE subterm, the conversion of
   the received bytes [bytes_to_values (Z.to_nat size) signed] (it occurs inside Dm14Cli.cli_read and in the expected result),
   replaced by the variable [conv].
   Why: [size] and [signed] are universally quantified, so evaluation cannot run the conversion; it unfolds it into a stuck
   fixpoint of some 300 KB in every goal, whereas a variable is carried along as it stands.
   How: the body is not written out but computed from [read_ok] by the three lines of Ltac below — unfold read_ok, txn_read and
   cli_read (just far enough to expose the conversion; the transaction stays the value of one `let'), abstract the conversion
   with [pattern], apply the abstraction to [conv] — so that the two propositions cannot differ anywhere else.
   [read_c_ok (bytes_to_values (Z.to_nat size) signed) u size signed raw data] is convertible with [read_ok u size signed raw data]:
   that is how [read_exact] follows from [read_c_exact] by [exact].  (`Print read_c_ok.` shows the computed body.) *)
Definition read_c_ok (conv : list Z -> list Z) (u : setup) (size : Z) (signed raw : bool) (data : list Z) : Prop.
Proof.
  let p := eval lazy beta delta [read_ok txn_read cli_read] in (read_ok u size signed raw data) in
  let q := eval pattern (bytes_to_values (Z.to_nat size) signed) in p in
  match q with ?f _ => let r := eval lazy beta in (f conv) in exact r end.
Defined.

Lemma read_c_exact conv : forall u, In u setups -> forall data size signed raw, (1 <= length data <= 7)%nat -> read_c_ok conv u size signed raw data.
Proof.
  intros u Hu data size signed raw Hl.
  destruct data as [|b1 [|b2 [|b3 [|b4 [|b5 [|b6 [|b7 [|b8 r]]]]]]]]; cbn [length] in Hl; try lia;
    revert u Hu; all_setups; by_eval.
Qed.

Theorem read_exact : forall u, In u setups -> forall data size signed raw,
  (1 <= length data <= 7)%nat -> read_ok u size signed raw data.
Proof. intros u Hu data size signed raw. exact (read_c_exact (bytes_to_values (Z.to_nat size) signed) u Hu data size signed raw). Qed.

(* back to back: the idle states reached are the initial ones up to what no handler reads before writing it; a second
   transaction on the objects of the first behaves alike *)
Theorem second_read_after_first : forall b1 b2 b3 c1 c2 size signed raw,
  let t1 := txn_read cfg_key xor_key (init_srv [4660; 77] []) init_cli 249 212 1 2449473539 3 size signed raw [b1; b2; b3] in
  let t2 := txn_read cfg_key xor_key (t_srv t1) (t_cli t1) 249 212 0 5 2 size signed raw [c1; c2] in
  t_ret t2 = CRValues (if raw then [c1; c2] else bytes_to_values (Z.to_nat size) signed [c1; c2]) /\ idle_cli (t_cli t2) /\ idle_srv (t_srv t2).
Proof. intros. by_eval. Qed.

(* ---------------------------------------------------------------- write: 1..7 bytes as 1-, 2- or 4-byte objects, any values *)
(* [size] is only stored by the requester; the count travels in both DM14 and the proceed DM15 and is compared with itself *)
Theorem write_b_exact : forall u, In u setups -> forall objcnt size bytes,
  In (objcnt, length bytes) [(1, 1%nat); (2, 2%nat); (3, 3%nat); (4, 4%nat); (5, 5%nat); (6, 6%nat); (7, 7%nat);
                             (1, 2%nat); (2, 4%nat); (3, 6%nat); (1, 4%nat)] ->
  write_b_ok u objcnt size bytes.
Proof.
  intros u Hu objcnt size bytes Hin. cbn [In] in Hin.
  repeat (destruct Hin as [Hin|Hin]; [injection Hin as <- Hl; symmetry in Hl|]); try contradiction;
    (do 8 (try (destruct bytes as [|? bytes]; cbn [length] in Hl; try discriminate Hl))); clear Hl;
    revert u Hu; all_setups; by_eval.
Qed.

Lemma write_ok_of_b u (size : nat) values :
  write_b_ok u (zlen values) (Z.of_nat size) (values_to_bytes size values) -> write_ok u size values.
Proof. unfold write_ok, write_b_ok. rewrite txn_write_is_b, Nat2Z.id. exact (fun H => H). Qed.

Theorem write_exact_1 : forall u, In u setups -> forall values, (1 <= length values <= 7)%nat -> write_ok u 1 values.
Proof.
  intros u Hu values Hl. apply write_ok_of_b.
  destruct values as [|b1 [|b2 [|b3 [|b4 [|b5 [|b6 [|b7 [|b8 r]]]]]]]]; cbn [length] in Hl; try lia;
    apply (write_b_exact u Hu); cbn; tauto.
Qed.
Theorem write_exact_2 : forall u, In u setups -> forall values, (1 <= length values <= 3)%nat -> write_ok u 2 values.
Proof.
  intros u Hu values Hl. apply write_ok_of_b.
  destruct values as [|b1 [|b2 [|b3 [|b4 r]]]]; cbn [length] in Hl; try lia; apply (write_b_exact u Hu); cbn; tauto.
Qed.
Theorem write_exact_4 : forall u, In u setups -> forall v, write_ok u 4 [v].
Proof. intros u Hu v. apply write_ok_of_b. apply (write_b_exact u Hu); cbn; tauto. Qed.

(* ---------------------------------------------------------------- the wrong key, end to end *)
Definition wrong_key (sd : Z) : Z := Z.land (xor_key sd + 1) 65535.
Definition key_setups : list setup := filter (fun u => c_seedsec (u_cfg u)) setups.

Definition refused (u : setup) (t : txn) : Prop :=
  t_ret t = CRRaise (XDevice (u_sa u) 4099 7) /\
  asked_or_notified (t_srv_sent t) = false /\ data_sent (t_srv_sent t) = false /\ t_srv_ret t = RetNone /\
  idle_cli (t_cli t) /\ idle_srv (t_srv t).

(* The serving application is never asked, so the data it would answer with (read) and the bytes of the requester's DM16
   (write) are never looked at: they stay variables, only the object count is run through 1..7. *)
Lemma read_wrong_key_refused_any : forall u, In u key_setups -> forall objcnt, In objcnt [1; 2; 3; 4; 5; 6; 7] -> forall size signed raw data,
  refused u (txn_read (u_cfg u) wrong_key (init_srv (u_seeds u) []) init_cli (u_ca u) (u_sa u) (u_direct u) (u_addr u) objcnt size signed raw data).
Proof.
  intros u Hu objcnt Ho size signed raw data. cbn [In] in Ho.
  repeat (destruct Ho as [<-|Ho]); try contradiction; revert u Hu; unfold key_setups; all_setups; by_eval.
Qed.
Lemma write_wrong_key_refused_any : forall u, In u key_setups -> forall objcnt, In objcnt [1; 2; 3; 4; 5; 6; 7] -> forall size bytes,
  refused u (txn_write_b (u_cfg u) wrong_key (init_srv (u_seeds u) []) init_cli (u_ca u) (u_sa u) (u_direct u) (u_addr u) objcnt size bytes).
Proof.
  intros u Hu objcnt Ho size bytes. cbn [In] in Ho.
  repeat (destruct Ho as [<-|Ho]); try contradiction; revert u Hu; unfold key_setups; all_setups; by_eval.
Qed.

Lemma zlen_1_7 l : (1 <= length l <= 7)%nat -> In (zlen l) [1; 2; 3; 4; 5; 6; 7].
Proof. intros H. unfold zlen. change [1; 2; 3; 4; 5; 6; 7] with (map Z.of_nat (seq 1 7)). apply in_map, in_seq. lia. Qed.

Theorem read_wrong_key_refused : forall u, In u key_setups -> forall data size signed raw, (1 <= length data <= 7)%nat ->
  refused u (txn_read (u_cfg u) wrong_key (init_srv (u_seeds u) []) init_cli (u_ca u) (u_sa u) (u_direct u) (u_addr u) (zlen data) size signed raw data).
Proof. intros u Hu data size signed raw Hl. apply (read_wrong_key_refused_any u Hu), zlen_1_7, Hl. Qed.
Theorem write_wrong_key_refused : forall u, In u key_setups -> forall values, (1 <= length values <= 7)%nat ->
  refused u (txn_write (u_cfg u) wrong_key (init_srv (u_seeds u) []) init_cli (u_ca u) (u_sa u) (u_direct u) (u_addr u) values 1).
Proof. intros u Hu values Hl. rewrite txn_write_is_b. apply (write_wrong_key_refused_any u Hu), zlen_1_7, Hl. Qed.

(* after a refused transaction (wrong key) the next well-formed one is served *)
Theorem read_after_wrong_key : forall b1 b2 c1 size signed raw,
  let t1 := txn_read cfg_key wrong_key (init_srv [4660; 77] []) init_cli 249 212 1 2449473539 2 size signed raw [b1; b2] in
  let t2 := txn_read cfg_key xor_key (t_srv t1) (t_cli t1) 249 212 1 2449473539 1 size signed raw [c1] in
  t_ret t1 = CRRaise (XDevice 212 4099 7) /\
  t_ret t2 = CRValues (if raw then [c1] else bytes_to_values (Z.to_nat size) signed [c1]) /\ idle_cli (t_cli t2) /\ idle_srv (t_srv t2).
Proof. intros. by_eval. Qed.
