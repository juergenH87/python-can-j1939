(* MpgProofs.v — C11: FD multi-PG packing. The header arithmetic is proved on the generated expressions mpg_header /
   mpg_parse_header (Tp22Gen); packing, collection and the deadline pass on Model22 (send_multi_pg, mpg_collect, mpg_pass).
   Reception is stated through a pure [unpack], tied to the model's handler by [process_multi_pg_is_unpack].
   [flat22], the reading of an FD resumption when nobody interferes (the counterpart of Flat.flat), is defined here. *)
From J1939 Require Import Base CodecGlue Model21 Model22.
From J1939.gen Require Import Codec Tp21Gen CaGen Tp22Gen.
From J1939P Require Import CodecProofs Flat.
Local Arguments Z.add : simpl never.
Local Arguments Z.sub : simpl never.
Local Arguments Z.mul : simpl never.

Definition legal_fd (n : Z) : bool := existsb (Z.eqb n) [0; 1; 2; 3; 4; 5; 6; 7; 8; 12; 16; 20; 24; 32; 48; 64].
Lemma lut_sweep : forallb (fun i => match fd_len i with Some v => legal_fd v && (Z.of_nat i <=? v) && (v <=? 64) | None => false end) (seq 0 65) = true.
Proof. vm_compute. reflexivity. Qed.
Theorem fd_len_legal (i : nat) : (i <= 64)%nat ->
  exists v, fd_len i = Some v /\ legal_fd v = true /\ Z.of_nat i <= v <= 64.
Proof.
  intros H. pose proof lut_sweep as S. rewrite forallb_forall in S.
  specialize (S i ltac:(apply in_seq; lia)). destruct (fd_len i) as [v|]; [|discriminate].
  exists v. split; [reflexivity|].
  apply andb_prop in S. destruct S as [S S3]. apply andb_prop in S. destruct S as [S1 S2].
  split; [exact S1|]. lia.
Qed.

Lemma mpg_header_roundtrip tos tf pg n rest :
  0 <= tos < 8 -> 0 <= tf < 8 -> 0 <= pg < 262144 -> 0 <= n < 256 ->
  mpg_parse_header (mpg_header tos tf pg n ++ rest) = (tos, tf, pg, n) /\ bytes (mpg_header tos tf pg n).
Proof.
  intros Ht Hf Hp Hn. unfold mpg_parse_header, mpg_header, byte_at. cbn [app nth]. bits_to_arith.
  rewrite (lor_add_low _ (tf * 4) 5), (lor_add_low _ ((pg / 65536) mod 4) 2) by (pow2_norm; lia).
  set (b0 := tos * 32 + tf * 4 + (pg / 65536) mod 4).
  rewrite (lor_add_low _ ((pg / 256) mod 256 * 256) 16), (lor_add_low _ (pg mod 256) 8) by (pow2_norm; lia).
  split; [repeat f_equal; unfold b0; lia|repeat constructor; unfold is_byte, b0; lia].
Qed.

(* ---------------------------------------------------------------- pure unpack, mirroring J1939_22._process_multi_pg *)
Record grp := { u_pgn : Z; u_data : list Z }.
Fixpoint unpack (fuel : nat) (d : list Z) : list grp :=
  match fuel with
  | O => []
  | S f =>
      if (length d <=? 4)%nat then []
      else let '(tos, tf, cpgn, plen) := mpg_parse_header d in
           if tos =? 0 then []
           else (if (tos =? 2) && (tf =? 0) then [{| u_pgn := cpgn; u_data := firstn (Z.to_nat plen) (skipn 4 d) |}] else [])
                ++ unpack f (skipn (Z.to_nat (4 + plen)) d)
  end.

(* what a resumption of the FD node does when nobody interferes between an emission and its continuation *)
Fixpoint flat22 (a : act node22) : node22 * list out * res :=
  match a with
  | Done s r => (s, [], RDone r)
  | Raise s e => (s, [], RRaise e)
  | Emit s o k => let '(s', os, r) := flat22 (k s) in (s', o :: os, r)
  end.

Lemma flat22_lift : forall (a : act node) (m : node22) (k : node22 -> Z -> act node22),
  flat22 (lift m a k) =
  match flat a with
  | (n', os, RDone r) => let '(s, os2, r2) := flat22 (k (with_base m n') r) in (s, os ++ os2, r2)
  | (n', os, RRaise e) => (with_base m n', os, RRaise e)
  end.
Proof.
  induction a as [s r|s e|s o c IH]; intros m k; cbn [lift flat flat22].
  - destruct (flat22 (k (with_base m s) r)) as [[s' os] r']. reflexivity.
  - reflexivity.
  - rewrite IH. cbn [base with_base].
    destruct (flat (c s)) as [[n' os] [r|e]].
    + destruct (flat22 (k _ r)) as [[s' os2] r2]. reflexivity.
    + reflexivity.
Qed.

Lemma flat22_notify_subscribers prio pgn sa dest data m k :
  flat22 (notify_subscribers22 prio pgn sa dest data m k) =
  let '(s, os, r) := flat22 (k m) in (s, deliveries (base m) prio pgn sa dest data ++ os, r).
Proof.
  unfold notify_subscribers22. rewrite flat22_lift.
  rewrite flat_notify_subscribers. cbn [flat].
  assert (with_base m (base m) = m) as -> by (destruct m; reflexivity).
  rewrite app_nil_r. destruct (flat22 (k m)) as [[s os] r]. reflexivity.
Qed.

Definition group_deliveries (m : node22) (prio sa dest : Z) (gs : list grp) : list out :=
  concat (map (fun g => deliveries (base m) prio (u_pgn g) sa dest (u_data g)) gs).

Lemma process_multi_pg_is_unpack : forall fuel prio sa dest data m,
  fst (flat22 (process_multi_pg fuel prio sa dest data m)) =
  (m, group_deliveries m prio sa dest (unpack fuel data)).
Proof.
  induction fuel as [|f IH]; intros prio sa dest data m; [reflexivity|].
  cbn [process_multi_pg unpack].
  destruct (length data <=? 4)%nat; [reflexivity|].
  destruct (mpg_parse_header data) as [[[tos tf] cpgn] plen].
  destruct (tos =? 0); [reflexivity|].
  destruct ((tos =? 2) && (tf =? 0)).
  - rewrite flat22_notify_subscribers.
    specialize (IH prio sa dest (skipn (Z.to_nat (4 + plen)) data) m).
    destruct (flat22 (process_multi_pg f prio sa dest _ m)) as [[s os] r]. cbn [fst] in *.
    injection IH as -> ->. unfold group_deliveries. cbn [map concat app u_pgn u_data]. reflexivity.
  - cbn [app]. apply IH.
Qed.

(* ---------------------------------------------------------------- pack / unpack *)
Definition cpg_ok (c : cpg) : Prop :=
  g_tos c = 2 /\ g_tf c = 0 /\ 0 <= g_cpgn c < 262144 /\ g_len c = Z.of_nat (length (g_data c)) /\
  (1 <= length (g_data c) <= 60)%nat.
Definition grp_of (c : cpg) : grp := {| u_pgn := g_cpgn c; u_data := g_data c |}.

Lemma unpack_pack1 fuel c rest : cpg_ok c ->
  unpack (S fuel) (mpg_pack1 c ++ rest) = grp_of c :: unpack fuel rest.
Proof.
  intros (Ht & Hf & Hp & Hl & Hn). unfold mpg_pack1. rewrite <- app_assoc, Ht, Hf, Hl. cbn [unpack].
  rewrite (proj1 (mpg_header_roundtrip 2 0 (g_cpgn c) (Z.of_nat (length (g_data c))) _ ltac:(lia) ltac:(lia) Hp ltac:(lia))).
  cbn [mpg_header app length skipn Nat.leb Z.eqb andb].
  replace (Z.to_nat (4 + Z.of_nat (length (g_data c)))) with (4 + length (g_data c))%nat by lia.
  rewrite Nat2Z.id, firstn_app, Nat.sub_diag, firstn_all. cbn [Nat.add skipn firstn].
  rewrite skipn_app, Nat.sub_diag, skipn_all, app_nil_r.
  rewrite (proj2 (Nat.leb_gt _ _)) by (rewrite app_length; lia). reflexivity.
Qed.

(* padding is skipped: fewer than 5 bytes by the length test, longer padding because it starts with a zero byte, TOS = 0 *)
Lemma unpack_padding fuel k : unpack fuel (mpg_padding k 0) = [].
Proof.
  destruct fuel; [reflexivity|]. destruct k; [reflexivity|]. cbn [unpack].
  destruct (_ <=? 4)%nat; reflexivity.
Qed.

(* T11.3: for EVERY list of groups, whatever the padding length, unpacking the packed frame returns exactly the groups *)
Theorem unpack_pack : forall (l : list cpg) (k : nat) fuel,
  Forall cpg_ok l -> (length l < fuel)%nat ->
  unpack fuel (concat (map mpg_pack1 l) ++ mpg_padding k 0) = map grp_of l.
Proof.
  induction l as [|c r IH]; intros k fuel Hok Hf.
  - cbn. apply unpack_padding.
  - inversion Hok as [|? ? Hc Hr]; subst. destruct fuel as [|f]; [cbn in Hf; lia|].
    cbn [map concat]. rewrite <- app_assoc. rewrite unpack_pack1 by exact Hc.
    cbn [map]. f_equal. apply IH; [exact Hr|cbn in Hf; lia].
Qed.

Lemma mpg_padding_length : forall c h, length (mpg_padding c h) = c.
Proof. induction c as [|c IH]; intros h; cbn [mpg_padding length]; [reflexivity|]. rewrite IH. reflexivity. Qed.

(* T11.2: the emitted frame: headers and data in submission order, padded to a legal FD length <= 64 *)
Definition packed_len (l : list cpg) : nat := length (concat (map mpg_pack1 l)).
Theorem frame_shape ff l src dst :
  (packed_len l <= 64)%nat ->
  exists fr v, send_multi_pg ff l src dst = Some fr /\ fd_len (packed_len l) = Some v /\
    f_data fr = concat (map mpg_pack1 l) ++ mpg_padding (Z.to_nat v - packed_len l) 0 /\
    Z.of_nat (length (f_data fr)) = v /\ legal_fd v = true /\ v <= 64 /\ f_fd fr = true /\
    (ff = ff_FBFF -> f_ext fr = false /\ f_id fr = src) /\
    (ff <> ff_FBFF -> f_ext fr = true /\ f_id fr = mpg_feff_id (fold_left (fun p c => Z.min (g_prio c) p) l 7) dst src).
Proof.
  intros Hl. destruct (fd_len_legal (packed_len l) Hl) as (v & Hv & Hleg & Hrng).
  unfold send_multi_pg. fold (packed_len l). rewrite Hv.
  assert ((v <? 0) = false) as -> by lia.
  set (d' := _ ++ mpg_padding _ 0).
  assert (Hlen : Z.of_nat (length d') = v)
    by (unfold d'; rewrite app_length, mpg_padding_length; unfold packed_len in *; lia).
  (* the two formats differ in the identifier only *)
  destruct (Z.eqb_spec ff ff_FBFF) as [E|E]; eexists _, v; (split; [reflexivity|]);
    refine (conj eq_refl (conj eq_refl (conj Hlen (conj Hleg (conj (proj2 Hrng) (conj eq_refl _)))))).
  - split; [intros _; split; reflexivity|intros N; contradiction].
  - split; [intros N; contradiction|intros _; split; reflexivity].
Qed.

(* T11.1 / T11.6: fill accounting of the collection buffers *)
Definition mbuf_ok (b : mbuf) : Prop :=
  m_fill b = fold_right (fun c acc => 4 + g_len c + acc) 0 (m_cpgs b) /\ m_fill b <= 64.
Definition tbl_ok (t : tbl mbuf) : Prop := forall h b, tget t h = Some b -> mbuf_ok b.

Lemma fold_fill_app l c : fold_right (fun c acc => 4 + g_len c + acc) 0 (l ++ [c]) = fold_right (fun c acc => 4 + g_len c + acc) 0 l + (4 + g_len c).
Proof. induction l as [|x r IH]; cbn [app fold_right]; [lia|]. rewrite IH. lia. Qed.

Lemma tbl_ok_tset t h b : tbl_ok t -> mbuf_ok b -> tbl_ok (tset t h b).
Proof. exact (tbl_all_tset (fun _ => mbuf_ok) t h b). Qed.

Theorem collect_keeps_accounting : forall fuel session ff sa dst c now deadline t t',
  tbl_ok t -> 1 <= g_len c <= 60 ->
  mpg_collect fuel session ff sa dst c now deadline t = Some t' -> tbl_ok t'.
Proof.
  induction fuel as [|f IH]; intros session ff sa dst c now deadline t t' Hok Hc E; [discriminate|].
  cbn [mpg_collect] in E.
  destruct (tget t (tp22_hash_mpg ff session sa dst)) as [b|] eqn:G.
  - destruct (Hok _ _ G) as [A B]. destruct (m_fill b <=? tp22_TP - g_len c) eqn:F.
    + injection E as <-. apply tbl_ok_tset; [exact Hok|]. unfold mbuf_ok. cbn [m_fill m_cpgs].
      rewrite fold_fill_app. unfold tp22_TP in F. split; lia.
    + eapply IH; [|exact Hc|exact E]. apply tbl_ok_tset; [exact Hok|split; assumption].
  - injection E as <-. apply tbl_ok_tset; [exact Hok|]. unfold mbuf_ok. cbn [m_fill m_cpgs fold_right]. split; lia.
Qed.

(* T11.5: a buffer is emitted by the first pass at or after its deadline, and left alone before *)
Theorem mpg_emitted_at_deadline key now nw m k b fr :
  tget (f_mpg m) key = Some b -> m_deadline b <= now ->
  (let '(ff, _, sa, dst) := tp22_unhash_mpg key in send_multi_pg ff (m_cpgs b) sa dst) = Some fr ->
  flat22 (mpg_pass [key] now nw m k) =
  let '(s, os, r) := flat22 (k (set_fmpg m (tdel (f_mpg m) key)) nw) in (s, OTx fr :: os, r).
Proof.
  intros Hget Hd Hfr. cbn [mpg_pass]. rewrite Hget.
  assert ((m_deadline b >? now) = false) as -> by lia.
  destruct (tp22_unhash_mpg key) as [[[ff c] sa] dst]. rewrite Hfr.
  cbn [flat22]. rewrite (tmem_get _ _ _ Hget). cbn [mpg_pass].
  destruct (flat22 (k _ nw)) as [[s os] r]. reflexivity.
Qed.
Theorem mpg_kept_before_deadline key now nw m k b :
  tget (f_mpg m) key = Some b -> now < m_deadline b ->
  mpg_pass [key] now nw m k = k m (minw nw (m_deadline b)).
Proof.
  intros Hget Hd. cbn [mpg_pass]. rewrite Hget.
  assert ((m_deadline b >? now) = true) as -> by lia. reflexivity.
Qed.
(* submitting a group with a time limit wakes the job thread (so that the deadline above is honoured) *)
Theorem submit_wakes m now dp pf ps prio sa data tl ff m' :
  len data <= tp22_TP -> tl <> 0 -> flat22 (send_pgn22 m now dp pf ps prio sa data tl ff) = (m', [], RDone 1) ->
  n_wakes (base m') = n_wakes (base m) + 1.
Proof.
  intros Hl Ht E. unfold send_pgn22 in E.
  destruct (pgn_mk dp pf ps) as [[pdp ppf] pps].
  rewrite (proj2 (Z.leb_le _ _) Hl), (proj2 (Z.eqb_neq _ _) Ht) in E.
  destruct (if pgn_is_pdu1 ppf then _ else _) as [cpgn0 dst].
  destruct ((ff =? ff_FBFF) && negb (dst =? addr_GLOBAL)); [discriminate E|].
  destruct (mpg_cpg_fields _ 2 0 cpgn0) as [[[cp ct] cf] cg].
  destruct (mpg_collect 300 0 ff sa dst _ now (now + tl) (f_mpg m)) as [t'|]; [|discriminate E].
  injection E as <-. reflexivity.
Qed.

Example mpg_example :
  let c1 := {| g_prio := 6; g_tos := 2; g_tf := 0; g_cpgn := 65226; g_len := 3; g_data := [1; 2; 3] |} in
  let c2 := {| g_prio := 3; g_tos := 2; g_tf := 0; g_cpgn := 53248; g_len := 2; g_data := [9; 8] |} in
  match send_multi_pg ff_FEFF [c1; c2] 32 255 with
  | Some fr => unpack 10 (f_data fr) = [grp_of c1; grp_of c2] /\ length (f_data fr) = 16%nat
  | None => False
  end.
Proof. vm_compute. split; reflexivity. Qed.
