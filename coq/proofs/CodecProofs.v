(* CodecProofs.v — C15: identifier / PGN / NAME codecs (all on GENERATED definitions). *)
From J1939 Require Import Base CodecGlue.
From J1939.gen Require Import Codec.

Lemma lor_field acc f k : 0 <= k -> 0 <= acc < 2 ^ k -> Z.lor acc (f * 2 ^ k) = acc + f * 2 ^ k.
Proof. intros Hk Ha. rewrite lor_comm_add by assumption. apply Z.add_comm. Qed.
(* the little-endian joins of Base.v in the form the code writes them *)
Lemma le16 x : 0 <= x < 65536 -> Z.lor (x mod 256) (Z.shiftl ((x / 256) mod 256) 8) = x.
Proof.
  intros H. rewrite shiftl_mul, lor_field by (pow2_norm; lia).
  etransitivity; [|exact (le2_join x H)]. pow2_norm. ring.
Qed.
Lemma le24 x : 0 <= x < 16777216 ->
  Z.lor (Z.lor (x mod 256) (Z.shiftl ((x / 256) mod 256) 8)) (Z.shiftl ((x / 65536) mod 256) 16) = x.
Proof.
  intros H. rewrite !shiftl_mul, (lor_field _ _ 8), (lor_field _ _ 16) by (pow2_norm; lia).
  etransitivity; [|exact (le3_join x H)]. pow2_norm. ring.
Qed.

(* ---------------------------------------------------------------- identifier *)
Lemma can_id_arith prio pgn sa :
  0 <= prio < 8 -> 0 <= pgn < 262144 -> 0 <= sa < 256 ->
  mid_can_id prio pgn sa = prio * 67108864 + pgn * 256 + sa.
Proof.
  intros Hp Hg Hs. unfold mid_can_id. bits_to_arith.
  rewrite (lor_add_low _ (pgn * 256) 26), (lor_add_low _ sa 8) by (pow2_norm; lia).
  reflexivity.
Qed.

Lemma mid_parse_arith id :
  mid_parse id = ((id / 67108864) mod 8, (id / 256) mod 262144, id mod 256).
Proof. unfold mid_parse. bits_to_arith. reflexivity. Qed.

(* MessageId(priority=.., parameter_group_number=.., source_address=..).can_id: the constructor masks, can_id packs *)
Lemma mid_can_id_of_eq prio pgn sa :
  mid_can_id_of prio pgn sa = mid_can_id (prio mod 8) (pgn mod 262144) (sa mod 256).
Proof. unfold mid_can_id_of, mid_mk. rewrite land_7, land_3FFFF, land_255. reflexivity. Qed.

Lemma mid_parse_can_id prio pgn sa :
  0 <= prio < 8 -> 0 <= pgn < 262144 -> 0 <= sa < 256 -> mid_parse (mid_can_id prio pgn sa) = (prio, pgn, sa).
Proof.
  intros Hp Hg Hs. rewrite can_id_arith, mid_parse_arith by assumption. f_equal; [f_equal|].
  - apply (field_at _ (pgn * 256 + sa) _ 0); lia.
  - apply (field_at _ sa _ prio); lia.
  - apply (low_at _ _ (prio * 262144 + pgn)); lia.
Qed.

Theorem T15_1_id_parse_compose id :
  0 <= id < 2 ^ 29 ->
  let '(p, g, s) := mid_parse id in mid_can_id p g s = id.
Proof.
  intros H. rewrite mid_parse_arith. pow2_norm.
  rewrite can_id_arith by (apply Z.mod_pos_bound; reflexivity). lia.
Qed.

Theorem T15_2_id_compose_parse prio pgn sa :
  mid_parse (mid_can_id_of prio pgn sa) = (prio mod 8, pgn mod 262144, sa mod 256).
Proof. rewrite mid_can_id_of_eq. apply mid_parse_can_id; apply Z.mod_pos_bound; reflexivity. Qed.

Corollary T15_2_in_range prio pgn sa :
  0 <= prio < 8 -> 0 <= pgn < 262144 -> 0 <= sa < 256 ->
  mid_parse (mid_can_id_of prio pgn sa) = (prio, pgn, sa).
Proof. intros. rewrite T15_2_id_compose_parse, !Z.mod_small by assumption. reflexivity. Qed.

Theorem id_in_29_bits prio pgn sa : 0 <= mid_can_id_of prio pgn sa < 2 ^ 29.
Proof.
  rewrite mid_can_id_of_eq, can_id_arith by (apply Z.mod_pos_bound; reflexivity). pow2_norm. lia.
Qed.

(* ---------------------------------------------------------------- PGN *)
Lemma pgn_value_arith dp pf ps :
  0 <= dp < 2 -> 0 <= pf < 256 -> 0 <= ps < 256 ->
  pgn_value dp pf ps = dp * 65536 + pf * 256 + ps.
Proof.
  intros. unfold pgn_value. bits_to_arith.
  rewrite (lor_add_low _ (pf * 256) 16), (lor_add_low _ ps 8) by (pow2_norm; lia).
  reflexivity.
Qed.

Theorem T15_3_pgn_value dp pf ps :
  pgn_value_of dp pf ps = (dp mod 2) * 65536 + (pf mod 256) * 256 + ps mod 256.
Proof.
  unfold pgn_value_of, pgn_mk. rewrite land_1, !land_255. apply pgn_value_arith; apply Z.mod_pos_bound; reflexivity.
Qed.

Theorem T15_3_pgn_fields pgn :
  pgn_from_mid pgn = ((pgn / 65536) mod 2, (pgn / 256) mod 256, pgn mod 256).
Proof. unfold pgn_from_mid. bits_to_arith. reflexivity. Qed.

(* value (from_message_id g) = g for the 17 bits the class represents (EDP bit dropped) *)
Theorem T15_3_pgn_roundtrip pgn :
  0 <= pgn < 262144 ->
  let '(dp, pf, ps) := pgn_from_mid pgn in pgn_value dp pf ps = pgn mod 131072.
Proof.
  intros H. rewrite T15_3_pgn_fields. rewrite pgn_value_arith by (apply Z.mod_pos_bound; reflexivity). lia.
Qed.

Theorem T15_3_fields_of_value dp pf ps :
  0 <= dp < 2 -> 0 <= pf < 256 -> 0 <= ps < 256 ->
  pgn_from_mid (pgn_value dp pf ps) = (dp, pf, ps).
Proof.
  intros Hd Hf Hs. rewrite pgn_value_arith, T15_3_pgn_fields by assumption. f_equal; [f_equal|].
  - apply (field_at _ (pf * 256 + ps) _ 0); lia.
  - apply (field_at _ ps _ dp); lia.
  - apply (low_at _ _ (dp * 256 + pf)); lia.
Qed.

Theorem T15_3_pdu_classification pf :
  0 <= pf < 256 ->
  (pgn_is_pdu1 pf = true <-> pf < 240) /\ (pgn_is_pdu2 pf = true <-> 240 <= pf) /\
  pgn_is_pdu1 pf = negb (pgn_is_pdu2 pf).
Proof.
  intros H. unfold pgn_is_pdu1, pgn_is_pdu2.
  destruct (Z.geb pf 0 && Z.leb pf 239) eqn:E1; destruct (Z.geb pf 240 && Z.leb pf 255) eqn:E2;
    cbn [negb]; repeat split; intros; try lia; try discriminate.
Qed.

(* ---------------------------------------------------------------- NAME *)
Definition name_fields_in_range (f : name_fields) : Prop :=
  let '(idn, mc, ei, fi, fn, rb, vs, vsi, ig, aac) := f in
  0 <= idn < 2 ^ 21 /\ 0 <= mc < 2 ^ 11 /\ 0 <= ei < 2 ^ 3 /\ 0 <= fi < 2 ^ 5 /\ 0 <= fn < 2 ^ 8 /\
  rb = 0 /\ 0 <= vs < 2 ^ 7 /\ 0 <= vsi < 2 ^ 4 /\ 0 <= ig < 2 ^ 3 /\ 0 <= aac < 2.

Lemma name_of_value_arith v :
  name_of_value v =
  (v mod 2 ^ 21, (v / 2 ^ 21) mod 2 ^ 11, (v / 2 ^ 32) mod 2 ^ 3, (v / 2 ^ 35) mod 2 ^ 5,
   (v / 2 ^ 40) mod 2 ^ 8, (v / 2 ^ 48) mod 2, (v / 2 ^ 49) mod 2 ^ 7, (v / 2 ^ 56) mod 2 ^ 4,
   (v / 2 ^ 60) mod 2 ^ 3, (v / 2 ^ 63) mod 2).
Proof. unfold name_of_value. bits_to_arith. reflexivity. Qed.

(* Horner form in the field widths.  The lor_field rewrites are `?`: the source may pack with `|` or with `+` *)
Lemma name_value_arith idn mc ei fi fn rb vs vsi ig aac :
  0 <= idn < 2 ^ 21 -> 0 <= mc < 2 ^ 11 -> 0 <= ei < 2 ^ 3 -> 0 <= fi < 2 ^ 5 -> 0 <= fn < 2 ^ 8 ->
  0 <= rb < 2 -> 0 <= vs < 2 ^ 7 -> 0 <= vsi < 2 ^ 4 -> 0 <= ig < 2 ^ 3 ->
  name_value idn mc ei fi fn rb vs vsi ig aac =
  idn + 2 ^ 21 * (mc + 2 ^ 11 * (ei + 2 ^ 3 * (fi + 2 ^ 5 * (fn + 2 ^ 8 * (rb + 2 * (vs + 2 ^ 7 * (vsi + 2 ^ 4 * (ig + 2 ^ 3 * aac)))))))).
Proof.
  intros. unfold name_value. rewrite !shiftl_mul by lia.
  rewrite ?(lor_field _ mc 21), ?(lor_field _ ei 32), ?(lor_field _ fi 35), ?(lor_field _ fn 40), ?(lor_field _ rb 48),
    ?(lor_field _ vs 49), ?(lor_field _ vsi 56), ?(lor_field _ ig 60), ?(lor_field _ aac 63) by (pow2_norm; lia).
  ring.
Qed.

(* fields are at the J1939-81 positions; value gives back v with bit 48 cleared *)
Theorem T15_4_name_fields_of_value v :
  name_ctor_value v =
  (v mod 2 ^ 21, (v / 2 ^ 21) mod 2 ^ 11, (v / 2 ^ 32) mod 2 ^ 3, (v / 2 ^ 35) mod 2 ^ 5,
   (v / 2 ^ 40) mod 2 ^ 8, 0, (v / 2 ^ 49) mod 2 ^ 7, (v / 2 ^ 56) mod 2 ^ 4,
   (v / 2 ^ 60) mod 2 ^ 3, (v / 2 ^ 63) mod 2).
Proof. unfold name_ctor_value. rewrite name_of_value_arith. reflexivity. Qed.

(* from the top down, pow_split peels one field off v mod 2^c *)
Lemma name_fields_join v : 0 <= v < 2 ^ 64 -> name_value_f (name_of_value v) = v.
Proof.
  intros H. rewrite name_of_value_arith. unfold name_value_f.
  rewrite name_value_arith by (apply Z.mod_pos_bound; reflexivity).
  transitivity (v mod 2 ^ 64); [|apply Z.mod_small, H].
  rewrite (pow_split v 63 1 64), (pow_split v 60 3 63), (pow_split v 56 4 60), (pow_split v 49 7 56), (pow_split v 48 1 49),
    (pow_split v 40 8 48), (pow_split v 35 5 40), (pow_split v 32 3 35), (pow_split v 21 11 32) by lia.
  change (2 ^ 1) with 2. ring.
Qed.

Theorem T15_4_name_value_roundtrip v :
  0 <= v < 2 ^ 64 ->
  name_value_f (name_ctor_value v) = v - ((v / 2 ^ 48) mod 2) * 2 ^ 48.
Proof.
  intros H. apply (proj1 (Z.add_move_r _ _ _)). etransitivity; [|exact (name_fields_join v H)].
  rewrite T15_4_name_fields_of_value, name_of_value_arith. unfold name_value_f.
  rewrite !name_value_arith by first [apply Z.mod_pos_bound; reflexivity | lia]. ring.
Qed.

Theorem T15_4_name_value_in_range v :
  0 <= v < 2 ^ 64 -> name_fields_in_range (name_ctor_value v).
Proof.
  intros _. rewrite T15_4_name_fields_of_value. unfold name_fields_in_range.
  repeat split; try reflexivity; apply Z.mod_pos_bound; reflexivity.
Qed.

Theorem T15_4_name_fields_roundtrip f :
  name_fields_in_range f -> name_ctor_value (name_value_f f) = f.
Proof.
  destruct f as [[[[[[[[[idn mc] ei] fi] fn] rb] vs] vsi] ig] aac].
  unfold name_fields_in_range. intros (H1 & H2 & H3 & H4 & H5 & H6 & H7 & H8 & H9 & H10). subst rb.
  rewrite T15_4_name_fields_of_value. unfold name_value_f. rewrite name_value_arith by lia.
  (* t_k stands for the fields from the k-th up, so that x is the fields below the k-th plus 2^p * t_k.  field_at reads the
     k-th back from what lies under it, x - 2^p * t_k, and above it, t_(k+1); the equations keep its side conditions linear *)
  remember (ig + 2 ^ 3 * aac) as t8. remember (vsi + 2 ^ 4 * t8) as t7. remember (vs + 2 ^ 7 * t7) as t6.
  remember (0 + 2 * t6) as t5. remember (fn + 2 ^ 8 * t5) as t4. remember (fi + 2 ^ 5 * t4) as t3.
  remember (ei + 2 ^ 3 * t3) as t2. remember (mc + 2 ^ 11 * t2) as t1. remember (idn + 2 ^ 21 * t1) as x.
  repeat apply f_equal2; try reflexivity.
  - apply (low_at _ _ t1); lia.
  - apply (field_at _ idn _ t2); lia.
  - apply (field_at _ (x - 2 ^ 32 * t2) _ t3); lia.
  - apply (field_at _ (x - 2 ^ 35 * t3) _ t4); lia.
  - apply (field_at _ (x - 2 ^ 40 * t4) _ t5); lia.
  - apply (field_at _ (x - 2 ^ 49 * t6) _ t7); lia.
  - apply (field_at _ (x - 2 ^ 56 * t7) _ t8); lia.
  - apply (field_at _ (x - 2 ^ 60 * t8) _ aac); lia.
  - apply (field_at _ (x - 2 ^ 63 * aac) _ 0); lia.
Qed.

Corollary T15_4_name_value_injective f g :
  name_fields_in_range f -> name_fields_in_range g -> name_value_f f = name_value_f g -> f = g.
Proof.
  intros Hf Hg E. rewrite <- (T15_4_name_fields_roundtrip f Hf), <- (T15_4_name_fields_roundtrip g Hg), E.
  reflexivity.
Qed.

Theorem T15_4_name_bytes_le v :
  0 <= v < 2 ^ 64 ->
  le_value (name_bytes v) = v /\ bytes (name_bytes v) /\ length (name_bytes v) = 8%nat.
Proof.
  intros H. unfold name_bytes. rewrite Z.shiftr_0_r, !land_255, !shiftr_div by lia. change 256 with (2 ^ 8).
  split; [|split; [|reflexivity]].
  - cbn [le_value]. transitivity (v mod 2 ^ 64); [|apply Z.mod_small, H].
    rewrite (pow_split v 56 8 64), (pow_split v 48 8 56), (pow_split v 40 8 48), (pow_split v 32 8 40),
      (pow_split v 24 8 32), (pow_split v 16 8 24), (pow_split v 8 8 16) by lia.
    ring.
  - repeat constructor; apply Z.mod_pos_bound; reflexivity.
Qed.

Theorem T15_4_name_of_bytes b : name_ctor_bytes b = name_ctor_value (le_value b).
Proof. reflexivity. Qed.

Theorem T15_4_name_bytes_roundtrip v :
  0 <= v < 2 ^ 64 -> name_ctor_bytes (name_bytes v) = name_ctor_value v.
Proof.
  intros H. rewrite T15_4_name_of_bytes. destruct (T15_4_name_bytes_le v H) as [-> _]. reflexivity.
Qed.

Theorem T15_4_name_value_idempotent v :
  0 <= v < 2 ^ 64 ->
  let w := name_value_f (name_ctor_value v) in
  0 <= w < 2 ^ 64 /\ name_value_f (name_ctor_value w) = w.
Proof.
  intros H. cbv zeta. rewrite T15_4_name_value_roundtrip by assumption.
  set (w := v - (v / 2 ^ 48) mod 2 * 2 ^ 48).
  assert (Hw : 0 <= w < 2 ^ 64) by (unfold w; pow2_norm; lia).
  split; [exact Hw|]. rewrite T15_4_name_value_roundtrip by exact Hw.
  unfold w. pow2_norm. lia.
Qed.

(* non-vacuity *)
Example name_example :
  name_value_f (name_ctor_value 0xFEDCBA9876543210) = 0xFEDCBA9876543210 - 0 /\
  name_value_f (name_ctor_value 0x0001000000000000) = 0.
Proof. vm_compute. split; reflexivity. Qed.
Example id_example : mid_parse (mid_can_id_of 6 0xFECA 0x80) = (6, 0xFECA, 0x80).
Proof. vm_compute. reflexivity. Qed.
