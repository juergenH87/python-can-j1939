(* Tp21Seg.v — segmentation / reassembly arithmetic of J1939-21 (T01.1), over the model's own
   [dt_payload] and [num_packets]. *)
From J1939 Require Import Base CodecGlue Model21.

Definition seg7 (p : list Z) (k : nat) : list Z := firstn 7 (skipn (7 * k) p).
Definition pad7 (l : list Z) : list Z := l ++ repeat 255 (7 - length l).
Definition npk (n : nat) : nat := (n + 6) / 7.

Lemma pad7_len l : (length l <= 7)%nat -> length (pad7 l) = 7%nat.
Proof. intros; unfold pad7; rewrite app_length, repeat_length; lia. Qed.
Lemma seg7_len_le p k : (length (seg7 p k) <= 7)%nat.
Proof. unfold seg7; rewrite firstn_length; lia. Qed.

Fixpoint segs (p : list Z) (k : nat) : list Z :=
  match k with O => [] | S k' => segs p k' ++ pad7 (seg7 p k') end.
Lemma segs_len p k : length (segs p k) = (7 * k)%nat.
Proof. induction k; simpl; [reflexivity|]. rewrite app_length, IHk, pad7_len by apply seg7_len_le. lia. Qed.

Lemma segs_full p k : (7 * k <= length p)%nat -> segs p k = firstn (7 * k) p.
Proof.
  induction k; intros H; [reflexivity|].
  cbn [segs]. rewrite IHk by lia.
  assert (Hs : length (seg7 p k) = 7%nat).
  { unfold seg7. rewrite firstn_length, skipn_length. lia. }
  unfold pad7. rewrite Hs. cbn [repeat Nat.sub]. rewrite app_nil_r.
  unfold seg7. replace (7 * S k)%nat with (7 * k + 7)%nat by lia.
  rewrite <- (firstn_skipn (7 * k) (firstn (7 * k + 7) p)) at 1.
  rewrite firstn_firstn. replace (Nat.min (7 * k) (7 * k + 7)) with (7 * k)%nat by lia.
  rewrite firstn_skipn_comm. reflexivity.
Qed.

Lemma firstn_app_pad (a b : list Z) : firstn (length a) (a ++ b) = a.
Proof. rewrite firstn_app, Nat.sub_diag, firstn_all. simpl. apply app_nil_r. Qed.

(* T01.1: the packets, each padded to 7 bytes, cut to the announced size give the message back *)
Theorem seg7_reassemble p : firstn (length p) (segs p (npk (length p))) = p.
Proof.
  set (n := length p). set (q := (n / 7)%nat).
  assert (Hq : (7 * q <= n)%nat) by (unfold q; lia).
  destruct (Nat.eq_dec (n mod 7) 0) as [E|E].
  - assert (npk n = q) as -> by (unfold npk, q; lia).
    rewrite segs_full by (fold n; lia).
    assert (n = 7 * q)%nat by (unfold q; lia).
    rewrite firstn_firstn. replace (Nat.min n (7 * q)) with n by lia. apply firstn_all.
  - assert (npk n = S q) as -> by (unfold npk, q; lia).
    cbn [segs]. rewrite segs_full by (fold n; lia).
    unfold pad7, seg7. rewrite app_assoc.
    assert (firstn (7 * q) p ++ firstn 7 (skipn (7 * q) p) = p) as ->.
    { rewrite firstn_all2 with (n := 7%nat). apply firstn_skipn. rewrite skipn_length. fold n. unfold q. lia. }
    apply firstn_app_pad.
Qed.

(* how far the packets reach: all of them cover the message, any proper prefix of them does not.  These (and [npk_two])
   are the only places where the quotient in [npk] is opened. *)
Lemma npk_reach p : len p <= 7 * Z.of_nat (npk (length p)).
Proof. unfold len, npk. lia. Qed.
Lemma npk_short p k : (k < npk (length p))%nat -> 7 * Z.of_nat k < len p.
Proof. unfold len, npk. lia. Qed.
Lemma npk_two p : 8 < len p -> 2 <= Z.of_nat (npk (length p)).
Proof. unfold len, npk. lia. Qed.

Lemma len_segs p k : len (segs p k) = 7 * Z.of_nat k.
Proof. unfold len. rewrite segs_len. lia. Qed.
Lemma segs_all p : firstn (Z.to_nat (len p)) (segs p (npk (length p))) = p.
Proof. unfold len. rewrite Nat2Z.id. apply seg7_reassemble. Qed.

Theorem sub_packets_short p k : (k < npk (length p))%nat -> (length (segs p k) < length p)%nat \/ length p = 0%nat.
Proof. intros H. left. pose proof (npk_short p k H) as L. rewrite segs_len. unfold len in L. lia. Qed.

Lemma dt_payload_spec p (k : nat) :
  dt_payload p (Z.of_nat k) = (Z.of_nat k + 1) :: pad7 (seg7 p k).
Proof.
  unfold dt_payload. f_equal.
  replace (Z.to_nat (Z.of_nat k * 7)) with (7 * k)%nat by lia.
  unfold pad7, seg7.
  set (d := skipn (7 * k) p).
  destruct (Nat.ltb_spec 7 (length d)) as [L|L].
  - rewrite firstn_length. replace (Nat.min 7 (length d)) with 7%nat by lia.
    cbn [Nat.sub repeat]. rewrite app_nil_r. reflexivity.
  - rewrite firstn_all2 by lia. reflexivity.
Qed.

Lemma num_packets_npk (s : nat) : num_packets (Z.of_nat s) = Z.of_nat (npk s).
Proof.
  unfold num_packets, npk.
  destruct (Z.eqb_spec (Z.of_nat s mod 7) 0); lia.
Qed.

Lemma dt_payload_len p (k : nat) : length (dt_payload p (Z.of_nat k)) = 8%nat.
Proof. rewrite dt_payload_spec. cbn [length]. rewrite pad7_len by apply seg7_len_le. reflexivity. Qed.

Lemma bytes_pad7 l : bytes l -> bytes (pad7 l).
Proof.
  intros H. unfold pad7, bytes. apply Forall_app. split; [exact H|].
  apply Forall_forall. intros x Hx. apply repeat_spec in Hx. subst. unfold is_byte. lia.
Qed.
Lemma bytes_seg7 p k : bytes p -> bytes (seg7 p k).
Proof.
  unfold bytes, seg7. intros H. apply Forall_forall. intros x Hx.
  rewrite Forall_forall in H. apply H.
  assert (In x (skipn (7 * k) p)) as Hy.
  { rewrite <- (firstn_skipn 7 (skipn (7 * k) p)). apply in_or_app. left. exact Hx. }
  rewrite <- (firstn_skipn (7 * k) p). apply in_or_app. right. exact Hy.
Qed.
