(* DiagProofs.v — C16: DTC, lamps, DM1 payload, DM22 (all on generated definitions + Dm1Model). *)
From J1939 Require Import Base Dm1Model.
From J1939.gen Require Import DiagGen.
From J1939P Require Import CodecProofs.

(* ---------------------------------------------------------------- DTC *)
Lemma dtc_pack_arith spn fmi oc :
  0 <= spn < 524288 -> 0 <= fmi < 32 -> 0 <= oc < 128 ->
  dtc_pack spn fmi oc = spn mod 65536 + fmi * 65536 + (spn / 65536) * 2097152 + oc * 16777216.
Proof.
  intros Hs Hf Ho. unfold dtc_pack.
  change 458752 with (Z.ones 3 * 2 ^ 16). rewrite land_high_mask, land_65535, land_31, land_127, !shiftl_mul by lia.
  rewrite (Z.mod_small fmi), (Z.mod_small oc), (Z.mod_small (spn / 2 ^ 16)) by (pow2_norm; lia).
  rewrite <- Z.mul_assoc, <- Z.pow_add_r by lia.
  (* the source puts the SPN's three high bits (at 21) before the FMI (at 16): swap them, then each field lies above the sum *)
  rewrite <- ?(Z.lor_assoc (spn mod 65536)), ?(Z.lor_comm (_ * 2 ^ (16 + 5))), ?Z.lor_assoc.
  rewrite ?(lor_field _ fmi 16), ?(lor_field _ (spn / 2 ^ 16) (16 + 5)), ?(lor_field _ oc 24) by (pow2_norm; lia).
  pow2_norm. ring.
Qed.

Lemma dtc_unpack_arith d :
  dtc_unpack d = (d mod 65536 + ((d / 2097152) mod 8) * 65536, (d / 65536) mod 32, (d / 16777216) mod 128, (d / 2147483648) mod 2).
Proof.
  unfold dtc_unpack.
  change 458752 with (Z.ones 3 * 2 ^ 16). rewrite land_high_mask, land_65535, land_31, land_127, land_1 by lia.
  rewrite ?lor_comm_add by lia. rewrite !shiftr_div, Z.div_div by lia. pow2_norm. change (32 * 65536) with 2097152.
  apply (f_equal (fun x => (x, _, _, _))). ring.
Qed.

(* T16.1 *)
Theorem dtc_roundtrip spn fmi oc :
  0 <= spn < 524288 -> 0 <= fmi < 32 -> 0 <= oc < 128 ->
  dtc_unpack (dtc_pack spn fmi oc) = (spn, fmi, oc, 0).
Proof.
  intros Hs Hf Ho. rewrite dtc_pack_arith by assumption.
  rewrite dtc_unpack_arith.
  f_equal; [f_equal; [f_equal|]|]; lia.
Qed.

(* the four bytes on the wire are J1939-73's: SPN low 16 bits LE; SPN bits 18..16 in bits 7..5 of byte 3
   above the 5-bit FMI; occurrence count in bits 6..0 of byte 4 (conversion method bit 0) *)
Theorem dtc_bytes_layout spn fmi oc :
  0 <= spn < 524288 -> 0 <= fmi < 32 -> 0 <= oc < 128 ->
  dm1_dtc_bytes (dtc_pack spn fmi oc) =
  [spn mod 256; (spn / 256) mod 256; (spn / 65536) * 32 + fmi; oc].
Proof.
  intros Hs Hf Ho. rewrite dtc_pack_arith by assumption. unfold dm1_dtc_bytes.
  rewrite byte3, byte2, byte1, land_255.
  f_equal; [lia|]. f_equal; [lia|]. f_equal; [lia|]. f_equal. lia.
Qed.

Theorem dtc_join_bytes b0 b1 b2 b3 :
  0 <= b0 < 256 -> 0 <= b1 < 256 -> 0 <= b2 < 256 -> 0 <= b3 < 256 ->
  dm1_dtc_join b0 b1 b2 b3 = b0 + b1 * 256 + b2 * 65536 + b3 * 16777216.
Proof.
  intros H0 H1 H2 H3. unfold dm1_dtc_join. rewrite !land_255, !Z.mod_small, !shiftl_mul by lia.
  rewrite ?(lor_field _ b1 8), ?(lor_field _ b2 16), ?(lor_field _ b3 24) by (pow2_norm; lia).
  reflexivity.
Qed.

Lemma dtc_bytes_join d : 0 <= d < 4294967296 ->
  dm1_dtc_join (Z.land d 255) (Z.land (Z.shiftr d 8) 255) (Z.land (Z.shiftr d 16) 255) (Z.land (Z.shiftr d 24) 255) = d.
Proof.
  intros H. rewrite byte3, byte2, byte1, land_255.
  rewrite dtc_join_bytes by (apply Z.mod_pos_bound; reflexivity).
  etransitivity; [|exact (le4_join d H)]. ring.
Qed.

(* ---------------------------------------------------------------- lamps *)
Definition lamp_states : list Z := [0; 1; 2; 3; 4].
Definition lamp_state (s : Z) : Prop := In s lamp_states.

(* the (lamp, flash) bit pairs that get_data writes for a status *)
Definition lamp_bits (st : Z) : Z * Z := match lamp_lut (lamp_norm st) with Some p => p | None => (0, 0) end.

(* finite: five statuses *)
Lemma lamp_bits_status s : lamp_state s ->
  0 <= fst (lamp_bits s) < 4 /\ 0 <= snd (lamp_bits s) < 4 /\ lamp_get_status (fst (lamp_bits s)) (snd (lamp_bits s)) = s.
Proof. intros [<-|[<-|[<-|[<-|[<-|[]]]]]]; cbn; lia. Qed.

Lemma pairs_unpack a b c d : 0 <= a < 4 -> 0 <= b < 4 -> 0 <= c < 4 -> 0 <= d < 4 ->
  let x := a + b * 4 + c * 16 + d * 64 in
  Z.land x 3 = a /\ Z.land (Z.shiftr x 2) 3 = b /\ Z.land (Z.shiftr x 4) 3 = c /\ Z.land (Z.shiftr x 6) 3 = d.
Proof.
  intros Ha Hb Hc Hd x. rewrite !land_3, !shiftr_div by lia. pow2_norm. repeat split.
  - apply (low_at _ _ (b + c * 4 + d * 16)); lia.
  - apply (field_at _ a _ (c + d * 4)); lia.
  - apply (field_at _ (a + b * 4) _ d); lia.
  - apply (field_at _ (a + b * 4 + c * 16) _ 0); lia.
Qed.

(* bit pairs at the standard's positions: pl bits 1..0, awl 3..2, rsl 5..4, mil 7..6 of both bytes *)
Lemma lamp_get_data_arith pl awl rsl mil :
  lamp_state pl -> lamp_state awl -> lamp_state rsl ->
  lamp_get_data pl awl rsl mil =
  [fst (lamp_bits pl) + fst (lamp_bits awl) * 4 + fst (lamp_bits rsl) * 16 + fst (lamp_bits mil) * 64;
   snd (lamp_bits pl) + snd (lamp_bits awl) * 4 + snd (lamp_bits rsl) * 16 + snd (lamp_bits mil) * 64].
Proof.
  intros Ha Hb Hc. unfold lamp_get_data. cbv zeta. fold (lamp_bits pl) (lamp_bits awl) (lamp_bits rsl) (lamp_bits mil).
  destruct (lamp_bits_status pl Ha) as (A1 & A2 & _), (lamp_bits_status awl Hb) as (B1 & B2 & _),
    (lamp_bits_status rsl Hc) as (C1 & C2 & _).
  rewrite !shiftl_mul by lia.
  rewrite ?(lor_field _ _ 0), ?(lor_field _ _ 2), ?(lor_field _ _ 4), ?(lor_field _ _ 6) by (pow2_norm; lia).
  pow2_norm. f_equal; [|f_equal]; ring.
Qed.

(* T16.2: all 5^4 lamp combinations survive get_data / get_status *)
Theorem lamps_roundtrip pl awl rsl mil rest :
  lamp_state pl -> lamp_state awl -> lamp_state rsl -> lamp_state mil ->
  map (fun lf => lamp_get_status (fst lf) (snd lf)) (dm1_lamp_fields (lamp_get_data pl awl rsl mil ++ rest)) = [pl; awl; rsl; mil]
  /\ length (lamp_get_data pl awl rsl mil) = 2%nat.
Proof.
  intros Ha Hb Hc Hd. split; [|reflexivity]. rewrite lamp_get_data_arith by assumption.
  destruct (lamp_bits_status pl Ha) as (A1 & A2 & A3), (lamp_bits_status awl Hb) as (B1 & B2 & B3),
    (lamp_bits_status rsl Hc) as (C1 & C2 & C3), (lamp_bits_status mil Hd) as (D1 & D2 & D3).
  unfold dm1_lamp_fields, byte_at. cbn [app nth map fst snd].
  destruct (pairs_unpack _ _ _ _ A1 B1 C1 D1) as (-> & -> & -> & ->), (pairs_unpack _ _ _ _ A2 B2 C2 D2) as (-> & -> & -> & ->).
  rewrite A3, B3, C3, D3. reflexivity.
Qed.

(* ---------------------------------------------------------------- T16.3 DM1 payload *)
Definition dtc_ok (d : dtc) : Prop := 0 <= d_spn d < 524288 /\ 0 <= d_fmi d < 32 /\ 0 <= d_oc d < 128.

Lemma parse_build_dtcs : forall dtcs rest, Forall dtc_ok dtcs ->
  parse_dtcs (length dtcs)
    (concat (map (fun d => dm1_dtc_bytes (dtc_pack (d_spn d) (d_fmi d) (d_oc d))) dtcs) ++ rest) = dtcs.
Proof.
  induction dtcs as [|d r IH]; intros rest H; [reflexivity|].
  inversion H as [|? ? Hd Hr]; subst. destruct Hd as (Hs & Hf & Ho).
  cbn [length map concat parse_dtcs].
  unfold dm1_dtc_bytes at 1. cbn [app].
  rewrite dtc_bytes_join, dtc_roundtrip by (rewrite ?dtc_pack_arith by assumption; lia).
  f_equal; [destruct d; reflexivity|]. apply IH. exact Hr.
Qed.

Theorem dm1_roundtrip pl awl rsl mil dtcs :
  lamp_state pl -> lamp_state awl -> lamp_state rsl -> lamp_state mil ->
  dtcs <> [] -> Forall dtc_ok dtcs ->
  dm1_parse (dm1_build pl awl rsl mil dtcs) = Some ([pl; awl; rsl; mil], dtcs) /\
  length (dm1_build pl awl rsl mil dtcs) = (2 + 4 * length dtcs)%nat.
Proof.
  intros Ha Hb Hc Hd Hne Hok.
  set (body := concat (map (fun d => dm1_dtc_bytes (dtc_pack (d_spn d) (d_fmi d) (d_oc d))) dtcs)).
  destruct (lamps_roundtrip pl awl rsl mil body Ha Hb Hc Hd) as [HL _].
  assert (Hlen : length (dm1_build pl awl rsl mil dtcs) = (2 + 4 * length dtcs)%nat).
  { unfold dm1_build. fold body. rewrite app_length. change (length (lamp_get_data pl awl rsl mil)) with 2%nat. f_equal.
    unfold body. clear. induction dtcs as [|d r IH]; [reflexivity|]. cbn [map concat length]. rewrite app_length, IH. cbn. lia. }
  split; [|exact Hlen].
  unfold dm1_parse. rewrite Hlen.
  assert (Hn : (1 <= length dtcs)%nat) by (destruct dtcs; [contradiction|cbn; lia]).
  assert ((Z.of_nat (2 + 4 * length dtcs) <? 6) = false) as -> by lia.
  assert ((Z.of_nat (2 + 4 * length dtcs) =? 8) = false) as -> by lia.
  assert (((Z.of_nat (2 + 4 * length dtcs) - 2) mod 4 =? 0) = true) as -> by lia.
  cbn [negb andb]. f_equal. f_equal.
  - exact HL.
  - replace (Z.to_nat ((Z.of_nat (2 + 4 * length dtcs) - 2) / 4)) with (length dtcs) by lia.
    (* lamp_get_data is a two-element list, so skipn 2 leaves the codes *)
    change (skipn 2 (dm1_build pl awl rsl mil dtcs)) with body.
    rewrite <- (app_nil_r body). apply parse_build_dtcs. exact Hok.
Qed.

(* ---------------------------------------------------------------- T16.4 DM22 *)
Theorem dm22_layout ctrl fmi spn :
  0 <= spn < 524288 -> 0 <= fmi < 32 ->
  dm22_payload ctrl fmi spn = [ctrl; 255; 255; 255; 255; spn mod 256; (spn / 256) mod 256; (spn / 65536) * 32 + fmi].
Proof.
  intros Hs Hf. unfold dm22_payload. change 224 with (Z.ones 3 * 2 ^ 5).
  rewrite byte1, land_255, land_31, land_high_mask, shiftr_div, Z.div_div, <- Z.pow_add_r by lia.
  (* bits 18..16 of the SPN are all that is left above bit 16 *)
  rewrite (Z.mod_small fmi), (Z.mod_small (spn / 2 ^ _)), (lor_add_low _ fmi 5) by (pow2_norm; lia).
  reflexivity.
Qed.
Theorem dm22_destination dest : dm22_args dest = (0, 195, dest mod 256, 6).
Proof. unfold dm22_args. rewrite !land_255. reflexivity. Qed.

Example dm1_example :
  dm1_parse (dm1_build 1 2 3 0 [{| d_spn := 524287; d_fmi := 31; d_oc := 127 |}; {| d_spn := 1; d_fmi := 2; d_oc := 3 |}])
  = Some ([1; 2; 3; 0], [{| d_spn := 524287; d_fmi := 31; d_oc := 127 |}; {| d_spn := 1; d_fmi := 2; d_oc := 3 |}]).
Proof. vm_compute. reflexivity. Qed.
