(* Steps21.v — the handlers of Model21 one step at a time; the role theorems and the theorems about ANY state go through
   these equations rather than through the handlers' bodies.
   [rcv_pass], [snd_pass] (on [key :: ks]), [cts_burst] (on [S f]) and [process_tp_dt] have one rewriting equation per branch,
   under the hypotheses that select the branch.  A branch that emits and goes on is stated on the flat run ([pre os] puts the
   emitted outputs in front of the run of the continuation), a branch of [process_tp_dt] that emits and ends as the triple
   [flat] returns, every other branch on the resumption itself.
   [process_tp_cm] has one equation per control byte: the text of the handler for that byte, on the resumption; its inner
   branches (session present or not, hold or grant) are chosen by the caller, by rewriting with what it knows of the tables.
   Of [send_pgn] only the single-frame branch is here; the RTS and the busy branch are Tp21Orig.send_pgn_rts / send_pgn_busy. *)
From J1939 Require Import Base CodecGlue Model21.
From J1939.gen Require Import Codec Tp21Gen CaGen.
From J1939P Require Import CodecProofs Flat TimerProofs.

(* ---------------------------------------------------------------- nodes *)
Ltac nsimpl := cbn [n_maxp n_cmdt_iv n_bam_iv n_rcv n_snd n_cas n_subs n_timers n_wakes n_nextid
                    set_rcv set_snd set_cas set_subs set_timers wake bump_id].

Lemma set_rcv_same n : set_rcv n (n_rcv n) = n. Proof. destruct n; reflexivity. Qed.
Lemma set_snd_same n : set_snd n (n_snd n) = n. Proof. destruct n; reflexivity. Qed.
Lemma set_timers_same n : set_timers n (n_timers n) = n. Proof. destruct n; reflexivity. Qed.

Lemma eqb_false a b : a <> b -> (a =? b) = false. Proof. lia. Qed.
Lemma gtb_true a b : b < a -> (a >? b) = true. Proof. lia. Qed.
Lemma gtb_false a b : a <= b -> (a >? b) = false. Proof. lia. Qed.
Lemma geb_true a b : b <= a -> (a >=? b) = true. Proof. lia. Qed.
Lemma geb_false a b : a < b -> (a >=? b) = false. Proof. lia. Qed.
Lemma ltb_true a b : a < b -> (a <? b) = true. Proof. lia. Qed.
Lemma ltb_false a b : b <= a -> (a <? b) = false. Proof. lia. Qed.

(* ---------------------------------------------------------------- flat runs *)
Definition pre (os : list out) (x : node * list out * res) : node * list out * res :=
  let '(s, os', r) := x in (s, os ++ os', r).

Lemma pre_nil x : pre [] x = x.
Proof. destruct x as [[s os] r]. reflexivity. Qed.
Lemma pre_app a b x : pre a (pre b x) = pre (a ++ b) x.
Proof. destruct x as [[s os] r]. cbn [pre]. rewrite app_assoc. reflexivity. Qed.
Lemma flat_notify prio pgn sa dest data n k :
  flat (notify_subscribers prio pgn sa dest data n k) = pre (deliveries n prio pgn sa dest data) (flat (k n)).
Proof. exact (flat_notify_subscribers prio pgn sa dest data n k). Qed.

(* partial correctness on the flat run: nothing is claimed of a run that raises *)
Definition post (P : node -> Z -> Prop) (a : act node) : Prop :=
  match flat a with (n', _, RDone r) => P n' r | (_, _, RRaise _) => True end.
Lemma post_pre P os a a' : flat a = pre os (flat a') -> post P a' -> post P a.
Proof. unfold post. intros ->. destruct (flat a') as [[s os'] r]. exact (fun H => H). Qed.
Lemma post_emit P s o k : post P (k s) -> post P (Emit s o k).
Proof. apply (post_pre P [o]). reflexivity. Qed.
Lemma post_raise P s e : post P (Raise s e).
Proof. exact I. Qed.
Lemma post_done (P : node -> Z -> Prop) s r : P s r -> post P (Done s r).
Proof. exact (fun H => H). Qed.

(* ---------------------------------------------------------------- the receive pass, one key *)
Section RcvPass.
  Variables (key : Z) (ks : list Z) (now nw : Z) (n : node) (k : node -> Z -> act node).

  Lemma rcv_pass_absent : tget (n_rcv n) key = None -> rcv_pass (key :: ks) now nw n k = rcv_pass ks now nw n k.
  Proof. intros E. cbn [rcv_pass]. rewrite E. reflexivity. Qed.

  Variable b : rbuf.
  Hypothesis Hget : tget (n_rcv n) key = Some b.

  Lemma rcv_pass_idle : r_deadline b = 0 -> rcv_pass (key :: ks) now nw n k = rcv_pass ks now nw n k.
  Proof. intros E. cbn [rcv_pass]. rewrite Hget, E. reflexivity. Qed.

  Lemma rcv_pass_wait : r_deadline b <> 0 -> now < r_deadline b ->
    rcv_pass (key :: ks) now nw n k = rcv_pass ks now (min_nw nw (r_deadline b)) n k.
  Proof. intros H0 Hlt. cbn [rcv_pass]. rewrite Hget, eqb_false, gtb_true by assumption. reflexivity. Qed.

  Lemma rcv_pass_due : r_deadline b <> 0 -> r_deadline b <= now ->
    flat (rcv_pass (key :: ks) now nw n k) =
    pre (if r_dst b =? addr_GLOBAL then [] else [OTx (tp21_abort (r_dst b) (r_src b) tp21_reason_TIMEOUT (r_pgn b))])
        (flat (rcv_pass ks now nw (set_rcv n (tdel (n_rcv n) key)) k)).
  Proof.
    intros H0 Hle. cbn [rcv_pass]. rewrite Hget, eqb_false, gtb_false by assumption.
    destruct (r_dst b =? addr_GLOBAL); [symmetry; apply pre_nil|reflexivity].
  Qed.
End RcvPass.

(* ---------------------------------------------------------------- the burst loop, one turn *)
(* buf['next_dt_not_before'], written only when minimum_tp_rts_cts_dt_interval is configured *)
Definition stamp_nb (n : node) (now : Z) (b : sbuf) : sbuf :=
  match n_cmdt_iv n with Some iv => with_nb b (now + iv) | None => b end.

Section CtsBurst.
  Variables (f : nat) (key now : Z) (n : node) (k : node -> act node).

  Lemma cts_burst_alias : tget (n_snd n) key = None -> cts_burst (S f) key now n k = Raise n E_Alias.
  Proof. intros E. cbn [cts_burst]. rewrite E. reflexivity. Qed.

  Variable b : sbuf.
  Hypothesis Hget : tget (n_snd n) key = Some b.
  Local Notation dt := (OTx (tp21_dt (s_src b) (s_dst b) (dt_payload (s_data b) (s_next b)))).
  Local Notation put b' := (set_snd n (tset (n_snd n) key b')).

  Lemma cts_burst_done : s_num b <= s_next b -> cts_burst (S f) key now n k = k n.
  Proof. intros H. cbn [cts_burst]. rewrite Hget, ltb_false by exact H. reflexivity. Qed.

  Lemma cts_burst_nowindow : s_next b < s_num b -> s_waitcts b = None -> cts_burst (S f) key now n k = Raise n E_Key.
  Proof. intros H Hw. cbn [cts_burst]. rewrite Hget, ltb_true, Hw by exact H. reflexivity. Qed.

  Lemma cts_burst_last : s_next b < s_num b -> s_waitcts b = Some (s_next b) ->
    flat (cts_burst (S f) key now n k) =
    pre [dt] (flat (k (put (upd_sbuf (stamp_nb n now b) ST_WAITING_CTS (now + tp21_T3) (s_next b + 1))))).
  Proof. intros H Hw. cbn [cts_burst]. rewrite Hget, ltb_true, Hw, Z.eqb_refl by exact H. reflexivity. Qed.

  Lemma cts_burst_paced w iv : s_next b < s_num b -> s_waitcts b = Some w -> s_next b <> w -> n_cmdt_iv n = Some iv ->
    flat (cts_burst (S f) key now n k) =
    pre [dt] (flat (k (put (upd_sbuf (with_nb b (now + iv)) (s_state b) (now + iv) (s_next b + 1))))).
  Proof.
    intros H Hw Hne Hiv. cbn [cts_burst]. rewrite Hget, ltb_true, Hw, eqb_false, Hiv by assumption. reflexivity.
  Qed.

  Lemma cts_burst_next w : s_next b < s_num b -> s_waitcts b = Some w -> s_next b <> w -> n_cmdt_iv n = None ->
    flat (cts_burst (S f) key now n k) =
    pre [dt] (flat (cts_burst f key now (put (upd_sbuf b (s_state b) (s_deadline b) (s_next b + 1))) k)).
  Proof.
    intros H Hw Hne Hiv. cbn [cts_burst]. rewrite Hget, ltb_true, Hw, eqb_false, Hiv by assumption. reflexivity.
  Qed.
End CtsBurst.

(* ---------------------------------------------------------------- the send pass, one key *)
(* the continuation [snd_pass] hands to [cts_burst], with its free variables as arguments *)
Definition after_burst (key : Z) (ks : list Z) (now nw : Z) (k : node -> Z -> act node) (n1 : node) : act node :=
  match tget (n_snd n1) key with
  | None => Raise n1 E_Alias
  | Some b1 =>
      let b2 := if (s_state b1 =? ST_SENDING_IN_CTS) && (s_next b1 >=? s_num b1)
                then upd_sbuf b1 ST_WAITING_CTS (now + tp21_T3) (s_next b1) else b1 in
      snd_pass ks now (min_nw nw (s_deadline b2)) (set_snd n1 (tset (n_snd n1) key b2)) k
  end.

Section AfterBurst.
  Variables (key : Z) (ks : list Z) (now nw : Z) (k : node -> Z -> act node) (n1 : node) (b1 : sbuf).
  Hypothesis Hget : tget (n_snd n1) key = Some b1.

  Lemma after_burst_keep : s_state b1 <> ST_SENDING_IN_CTS \/ s_next b1 < s_num b1 ->
    after_burst key ks now nw k n1 = snd_pass ks now (min_nw nw (s_deadline b1)) (set_snd n1 (tset (n_snd n1) key b1)) k.
  Proof.
    intros H. unfold after_burst. rewrite Hget.
    replace ((s_state b1 =? ST_SENDING_IN_CTS) && (s_next b1 >=? s_num b1)) with false by lia. reflexivity.
  Qed.

  Lemma after_burst_park : s_state b1 = ST_SENDING_IN_CTS -> s_num b1 <= s_next b1 ->
    after_burst key ks now nw k n1 =
    snd_pass ks now (min_nw nw (now + tp21_T3))
             (set_snd n1 (tset (n_snd n1) key (upd_sbuf b1 ST_WAITING_CTS (now + tp21_T3) (s_next b1)))) k.
  Proof. intros Hs H. unfold after_burst. rewrite Hget, Hs, geb_true by exact H. reflexivity. Qed.
End AfterBurst.

Section SndPass.
  Variables (key : Z) (ks : list Z) (now nw : Z) (n : node) (k : node -> Z -> act node).

  Lemma snd_pass_absent : tget (n_snd n) key = None -> snd_pass (key :: ks) now nw n k = Raise n E_Key.
  Proof. intros E. cbn [snd_pass]. rewrite E. reflexivity. Qed.

  Variable b : sbuf.
  Hypothesis Hget : tget (n_snd n) key = Some b.

  Lemma snd_pass_idle : s_deadline b = 0 -> snd_pass (key :: ks) now nw n k = snd_pass ks now nw n k.
  Proof. intros E. cbn [snd_pass]. rewrite Hget, E. reflexivity. Qed.

  Lemma snd_pass_wait : s_deadline b <> 0 -> now < s_deadline b ->
    snd_pass (key :: ks) now nw n k = snd_pass ks now (min_nw nw (s_deadline b)) n k.
  Proof. intros H0 Hlt. cbn [snd_pass]. rewrite Hget, eqb_false, gtb_true by assumption. reflexivity. Qed.

  Hypothesis Hd0 : s_deadline b <> 0.
  Hypothesis Hdue : s_deadline b <= now.
  Local Notation dt := (OTx (tp21_dt (s_src b) (s_dst b) (dt_payload (s_data b) (s_next b)))).
  Local Notation del := (set_snd n (tdel (n_snd n) key)).

  Lemma snd_pass_due_waitcts : s_state b = ST_WAITING_CTS ->
    flat (snd_pass (key :: ks) now nw n k) =
    pre [OTx (tp21_abort (s_src b) (s_dst b) tp21_reason_TIMEOUT (s_pgn b))] (flat (snd_pass ks now nw del k)).
  Proof.
    intros Hs. cbn [snd_pass]. rewrite Hget, eqb_false, gtb_false, Hs by assumption.
    cbn [Z.eqb ST_WAITING_CTS flat]. rewrite (tmem_get _ _ _ Hget). reflexivity.
  Qed.

  Lemma snd_pass_due_incts : s_state b = ST_SENDING_IN_CTS ->
    snd_pass (key :: ks) now nw n k =
    cts_burst (Z.to_nat (s_num b - s_next b) + 1) key now n (after_burst key ks now nw k).
  Proof. intros Hs. cbn [snd_pass]. rewrite Hget, eqb_false, gtb_false, Hs by assumption. reflexivity. Qed.

  Lemma snd_pass_due_bm : s_state b = ST_SENDING_BM -> s_next b + 1 < s_num b ->
    flat (snd_pass (key :: ks) now nw n k) =
    pre [dt] (flat (snd_pass ks now (min_nw nw (now + n_bam_iv n))
                      (set_snd n (tset (n_snd n) key (upd_sbuf b ST_SENDING_BM (now + n_bam_iv n) (s_next b + 1)))) k)).
  Proof.
    intros Hs Hn. cbn [snd_pass]. rewrite Hget, eqb_false, gtb_false, Hs, ltb_true by assumption. reflexivity.
  Qed.

  Lemma snd_pass_due_bm_last : s_state b = ST_SENDING_BM -> s_num b <= s_next b + 1 ->
    flat (snd_pass (key :: ks) now nw n k) = pre [dt] (flat (snd_pass ks now nw del k)).
  Proof.
    intros Hs Hn. cbn [snd_pass]. rewrite Hget, eqb_false, gtb_false, Hs, ltb_false by assumption. reflexivity.
  Qed.

  Lemma snd_pass_due_other :
    s_state b <> ST_WAITING_CTS -> s_state b <> ST_SENDING_IN_CTS -> s_state b <> ST_SENDING_BM ->
    snd_pass (key :: ks) now nw n k = snd_pass ks now nw del k.
  Proof. intros H1 H2 H3. cbn [snd_pass]. rewrite Hget, !eqb_false, gtb_false by assumption. reflexivity. Qed.
End SndPass.

(* ---------------------------------------------------------------- TP.DT *)
Lemma dt_empty prio sa dest now n : process_tp_dt prio sa dest [] now n = Raise n E_Index.
Proof. reflexivity. Qed.
Lemma dt_no_session prio sa dest q rest now n :
  tget (n_rcv n) (tp21_hash sa dest) = None -> process_tp_dt prio sa dest (q :: rest) now n = Done n 0.
Proof. intros E. unfold process_tp_dt. rewrite E. reflexivity. Qed.

Section TpDt.
  Variables (prio sa dest q : Z) (rest : list Z) (now : Z) (n : node) (b : rbuf).
  Local Notation h := (tp21_hash sa dest).
  Local Notation d := (r_data b ++ rest).
  Local Notation put b' := (set_rcv n (tset (n_rcv n) h b')).
  Hypothesis Hget : tget (n_rcv n) h = Some b.

  Lemma dt_last : r_size b <= len d ->
    flat (process_tp_dt prio sa dest (q :: rest) now n) =
    (wake (set_rcv n (tdel (n_rcv n) h)),
     (if dest =? addr_GLOBAL then [] else [OTx (tp21_eom_ack dest sa (r_size b) (r_num b) (r_pgn b))])
     ++ deliveries n prio (r_pgn b) sa dest (firstn (Z.to_nat (r_size b)) d), RDone 0).
  Proof.
    intros Hl. unfold process_tp_dt. rewrite Hget, geb_true by exact Hl.
    destruct (dest =? addr_GLOBAL); cbn [negb flat]; rewrite flat_notify_subscribers; nsimpl;
      rewrite tmem_tset_same; cbn [flat]; nsimpl; rewrite tdel_tset_same, app_nil_r;
      rewrite (deliveries_env n (put _)) by reflexivity; reflexivity.
  Qed.

  Lemma dt_border mr : len d < r_size b -> dest <> addr_GLOBAL -> r_next b <= q -> r_maxrec b = Some mr ->
    flat (process_tp_dt prio sa dest (q :: rest) now n) =
    (wake (put (upd_rbuf b d (Z.min (r_next b + mr) (r_num b)) (now + tp21_T2))),
     [OTx (tp21_cts dest sa (Z.min mr (r_num b - r_next b)) (r_next b + 1) (r_pgn b))], RDone 0).
  Proof.
    intros Hl Hd Hq Hm. unfold process_tp_dt.
    rewrite Hget, geb_false, eqb_false, geb_true, Hm by assumption.
    cbn [negb andb flat]. nsimpl. rewrite tget_tset_same. cbn [upd_rbuf r_maxrec]. rewrite Hm.
    cbn [flat]. nsimpl. rewrite tset_tset_same. reflexivity.
  Qed.
  Lemma dt_border_nomax : len d < r_size b -> dest <> addr_GLOBAL -> r_next b <= q -> r_maxrec b = None ->
    process_tp_dt prio sa dest (q :: rest) now n = Raise (put (upd_rbuf b d (r_next b) (r_deadline b))) E_Key.
  Proof.
    intros Hl Hd Hq Hm. unfold process_tp_dt.
    rewrite Hget, geb_false, eqb_false, geb_true, Hm by assumption. reflexivity.
  Qed.

  Lemma dt_quiet : len d < r_size b -> dest = addr_GLOBAL \/ q < r_next b ->
    process_tp_dt prio sa dest (q :: rest) now n = Done (wake (put (upd_rbuf b d (r_next b) (now + tp21_T1)))) 0.
  Proof.
    intros Hl Hq. unfold process_tp_dt. rewrite Hget, geb_false by exact Hl.
    replace (negb (dest =? addr_GLOBAL) && (q >=? r_next b)) with false by lia.
    nsimpl. rewrite tset_tset_same. reflexivity.
  Qed.
End TpDt.

Lemma tp_dt_shape prio sa dest data now n :
  exists t, (forall h', tp21_hash sa dest <> h' -> tget t h' = tget (n_rcv n) h') /\
            (fnode (process_tp_dt prio sa dest data now n) = set_rcv n t \/
             fnode (process_tp_dt prio sa dest data now n) = wake (set_rcv n t)).
Proof.
  assert (Hsame : forall a, fnode a = n -> exists t, (forall h', tp21_hash sa dest <> h' -> tget t h' = tget (n_rcv n) h') /\
                                                     (fnode a = set_rcv n t \/ fnode a = wake (set_rcv n t))).
  { intros a ->. exists (n_rcv n). split; [reflexivity|left; symmetry; apply set_rcv_same]. }
  destruct data as [|q rest]; [apply Hsame; reflexivity|].
  destruct (tget (n_rcv n) (tp21_hash sa dest)) as [b|] eqn:Hget;
    [|rewrite (dt_no_session _ _ _ _ _ _ _ Hget); apply Hsame; reflexivity].
  unfold fnode. destruct (Z_lt_le_dec (len (r_data b ++ rest)) (r_size b)) as [Hl|Hl].
  - destruct (Z.eq_dec dest addr_GLOBAL) as [Hd|Hd]; [|destruct (Z_lt_le_dec q (r_next b)) as [Hq|Hq]].
    1,2: rewrite (dt_quiet prio sa dest q rest now n b Hget Hl) by tauto;
      eexists; (split; [|right; reflexivity]); intros h'; apply tget_tset_other.
    destruct (r_maxrec b) as [mr|] eqn:Hm.
    + rewrite (dt_border prio sa dest q rest now n b Hget mr) by assumption.
      eexists. split; [|right; reflexivity]. intros h'. apply tget_tset_other.
    + rewrite (dt_border_nomax prio sa dest q rest now n b Hget) by assumption.
      eexists. split; [|left; reflexivity]. intros h'. apply tget_tset_other.
  - rewrite (dt_last prio sa dest q rest now n b Hget Hl).
    eexists. split; [|right; reflexivity]. intros h'. apply tget_tdel_other.
Qed.

(* ---------------------------------------------------------------- TP.CM: one equation per control byte *)
Section TpCm.
  Variables (prio sa dest : Z) (d : list Z) (now : Z) (n : node).
  Local Notation pgn := (tp21_cm_pgn d).
  Local Notation reply o := (Emit n (OTx o) (fun n' => Done n' 0)).

  Lemma cm_short : (length d < 8)%nat -> process_tp_cm prio sa dest d now n = Raise n E_Index.
  Proof. intros H. unfold process_tp_cm. rewrite (proj2 (Nat.ltb_lt _ _) H). reflexivity. Qed.

  Hypothesis Hlen : (8 <= length d)%nat.

  Lemma cm_rts : tp21_cm_control d = tp21_cm_RTS ->
    process_tp_cm prio sa dest d now n =
    let h := tp21_hash sa dest in
    if tmem (n_rcv n) h then reply (tp21_abort dest sa tp21_reason_BUSY pgn)
    else
      let num := tp21_rts_num_packages d in
      let g := Z.min (n_maxp n) (Z.min (tp21_rts_max_num_packages d) num) in
      let b := {| r_pgn := pgn; r_size := tp21_rts_message_size d; r_num := num; r_next := g; r_maxrec := Some g;
                  r_data := []; r_deadline := now + tp21_T2; r_src := sa; r_dst := dest |} in
      Emit (set_rcv n (tset (n_rcv n) h b)) (OTx (tp21_cts dest sa g 1 pgn)) (fun n' => Done (wake n') 0).
  Proof. intros Hc. unfold process_tp_cm. rewrite (proj2 (Nat.ltb_ge _ _) Hlen), Hc. reflexivity. Qed.

  Lemma cm_cts : tp21_cm_control d = tp21_cm_CTS ->
    process_tp_cm prio sa dest d now n =
    let h := tp21_hash dest sa in
    match tget (n_snd n) h with
    | None => reply (tp21_abort dest sa tp21_reason_RESOURCES pgn)
    | Some b =>
        let num := tp21_cts_num_packages d in
        if num =? 0 then Done (wake (set_snd n (tset (n_snd n) h (upd_sbuf b (s_state b) (now + tp21_Th) (s_next b))))) 0
        else
          let num1 := if num >? s_num b then s_num b else num in
          let num2 := if tp21_cts_next_package_number d + num1 >? s_num b
                      then s_num b - tp21_cts_next_package_number d else num1 in
          Done (wake (set_snd n (tset (n_snd n) h
                 (with_waitcts (upd_sbuf b ST_SENDING_IN_CTS (Z.max now (s_nb b)) (s_next b)) (Some (s_next b + num2 - 1)))))) 0
    end.
  Proof. intros Hc. unfold process_tp_cm. rewrite (proj2 (Nat.ltb_ge _ _) Hlen), Hc. reflexivity. Qed.

  Lemma cm_eom_ack : tp21_cm_control d = tp21_cm_EOM_ACK ->
    process_tp_cm prio sa dest d now n =
    let h := tp21_hash dest sa in
    if negb (tmem (n_snd n) h) then reply (tp21_abort dest sa tp21_reason_RESOURCES pgn)
    else notify_subscribers prio pgn sa dest d n (fun n1 =>
           match tget (n_snd n1) h with
           | None => Raise n1 E_Key
           | Some b => Done (wake (set_snd n1 (tset (n_snd n1) h (upd_sbuf b ST_FINISHED now (s_next b))))) 0
           end).
  Proof. intros Hc. unfold process_tp_cm. rewrite (proj2 (Nat.ltb_ge _ _) Hlen), Hc. reflexivity. Qed.

  Lemma cm_bam : tp21_cm_control d = tp21_cm_BAM ->
    process_tp_cm prio sa dest d now n =
    let h := tp21_hash sa dest in
    let n1 := if tmem (n_rcv n) h then wake (set_rcv n (tdel (n_rcv n) h)) else n in
    let b := {| r_pgn := pgn; r_size := tp21_bam_message_size d; r_num := tp21_bam_num_packages d; r_next := 1;
                r_maxrec := None; r_data := []; r_deadline := now + tp21_T1; r_src := sa; r_dst := dest |} in
    Done (wake (set_rcv n1 (tset (n_rcv n1) h b))) 0.
  Proof. intros Hc. unfold process_tp_cm. rewrite (proj2 (Nat.ltb_ge _ _) Hlen), Hc. reflexivity. Qed.

  Lemma cm_abort : tp21_cm_control d = tp21_cm_ABORT ->
    process_tp_cm prio sa dest d now n =
    let h := tp21_hash dest sa in
    match tget (n_snd n) h with
    | Some b => if s_state b =? ST_WAITING_CTS
                then Done (set_snd n (tset (n_snd n) h (upd_sbuf b ST_FINISHED now (s_next b)))) 0 else Done n 0
    | None => Done n 0
    end.
  Proof. intros Hc. unfold process_tp_cm. rewrite (proj2 (Nat.ltb_ge _ _) Hlen), Hc. reflexivity. Qed.

  Lemma cm_unknown :
    ~ In (tp21_cm_control d) [tp21_cm_RTS; tp21_cm_CTS; tp21_cm_EOM_ACK; tp21_cm_BAM; tp21_cm_ABORT] ->
    process_tp_cm prio sa dest d now n = Raise n E_Runtime.
  Proof.
    intros Hc. unfold process_tp_cm. rewrite (proj2 (Nat.ltb_ge _ _) Hlen), !eqb_false; [reflexivity|..];
      intro E; apply Hc; rewrite E; cbn [In]; tauto.
  Qed.
End TpCm.

(* ---------------------------------------------------------------- send_pgn: a message that fits one frame *)
Lemma send_pgn_short n now dp pf ps prio sa data : len data <= 8 ->
  send_pgn n now dp pf ps prio sa data =
  Emit n (OTx {| f_id := mid_can_id_of prio (pgn_value_of dp pf ps) sa; f_ext := true; f_fd := false; f_data := data |})
       (fun n' => Done n' 1).
Proof.
  intros H. unfold send_pgn, pgn_value_of. destruct (pgn_mk dp pf ps) as [[pdp ppf] pps].
  rewrite (proj2 (Z.leb_le _ _) H). reflexivity.
Qed.
