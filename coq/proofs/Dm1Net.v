(* Dm1Net.v — C16 end to end, first on the J1939-21 layer, then (second half of the file) on J1939-22: a DM1 with 2 .. 445
   trouble codes (10 .. 1782 bytes, i.e. every DM1 that needs the transport protocol and fits it) handed to send_pgn as the
   Dm1 service does — PGN 0xFECA (PDU2), priority 7 — runs through the broadcast closed loop of two model nodes and reaches
   every listener on the other node as ONE payload which parses back to exactly the lamp states and the trouble codes, in
   order.  Composition of the broadcast closed loop (Net21Bam.v, which covers PDU2 groups) with the DM1 payload round trip
   (DiagProofs.v). *)
From J1939 Require Import Base CodecGlue Model21 Dm1Model.
From J1939.gen Require Import Codec Tp21Gen CaGen DiagGen.
From J1939P Require Import CodecProofs Flat Tp21Seg Net21 Net21Bam DiagProofs.

Lemma dm1_payload pl awl rsl mil dtcs :
  lamp_state pl -> lamp_state awl -> lamp_state rsl -> lamp_state mil -> Forall dtc_ok dtcs -> (2 <= length dtcs)%nat ->
  let p := dm1_build pl awl rsl mil dtcs in
  dm1_parse p = Some ([pl; awl; rsl; mil], dtcs) /\ len p = 2 + 4 * Z.of_nat (length dtcs) /\ dm1_priority p = 7.
Proof.
  intros Hpl Hawl Hrsl Hmil Hok Hn p.
  assert (Hne : dtcs <> []) by (destruct dtcs; [cbn in Hn; lia|discriminate]).
  destruct (dm1_roundtrip pl awl rsl mil dtcs Hpl Hawl Hrsl Hmil Hne Hok) as (Hparse & Hlen). fold p in Hparse, Hlen.
  split; [exact Hparse|]. unfold dm1_priority, len. rewrite Hlen. split; [lia|].
  destruct (Z.gtb_spec (Z.of_nat (2 + 4 * length dtcs)) 8); [reflexivity|lia].
Qed.

Theorem dm1_over_broadcast_end_to_end pl awl rsl mil dtcs sa t0 A0 B0 :
  lamp_state pl -> lamp_state awl -> lamp_state rsl -> lamp_state mil -> Forall dtc_ok dtcs ->
  (2 <= length dtcs <= 445)%nat -> 0 <= sa < 255 -> 0 < t0 ->
  0 < n_bam_iv A0 < tp21_T1 ->
  n_snd A0 = [] /\ n_rcv A0 = [] /\ n_timers A0 = [] ->
  n_snd B0 = [] /\ n_rcv B0 = [] /\ n_timers B0 = [] ->
  let p := dm1_build pl awl rsl mil dtcs in
  dm1_priority p = 7 /\
  exists j, let s := steps j (net_send (net0 A0 B0 t0) 0 254 202 (dm1_priority p) sa p) in
    qa s = [] /\ qb s = [] /\ n_snd (na s) = [] /\ n_rcv (na s) = [] /\ n_snd (nb s) = [] /\ n_rcv (nb s) = [] /\
    evb s = deliveries B0 7 65226 sa addr_GLOBAL p /\
    dm1_parse p = Some ([pl; awl; rsl; mil], dtcs).
Proof.
  intros Hpl Hawl Hrsl Hmil Hok Hn Hsa Ht0 Hiv HA HB p.
  destruct (dm1_payload pl awl rsl mil dtcs Hpl Hawl Hrsl Hmil Hok ltac:(lia)) as (Hparse & Hlen & Hprio). fold p in Hparse, Hlen, Hprio.
  assert (Hlp : 8 < len p <= 1785) by lia.
  split; [exact Hprio|]. rewrite Hprio.
  destruct (bam_closed_loop_delivers_any 7 sa 0 254 202 p t0 A0 B0 ltac:(lia) Hsa ltac:(right; lia) ltac:(lia) Hlp Ht0 Hiv HA HB)
    as (j & Q1 & Q2 & Q3 & Q4 & Q5 & Q6 & Q7 & _).
  exists j. cbv zeta. repeat split; try assumption.
Qed.

Example dm1_over_broadcast_instance :
  let A := init_node 3 None None in
  let B := subscribe (init_node 2 None None) 7 FNone in
  let dtcs := [{| d_spn := 100; d_fmi := 3; d_oc := 1 |}; {| d_spn := 524287; d_fmi := 31; d_oc := 127 |}] in
  let p := dm1_build 1 0 4 2 dtcs in
  evb (steps 10 (net_send (net0 A B 1000) 0 254 202 (dm1_priority p) 32 p)) = [OCb 7 7 65226 32 p] /\
  dm1_parse p = Some ([1; 0; 4; 2], dtcs).
Proof. vm_compute. split; reflexivity. Qed.

(* ---------------------------------------------------------------- the same on the J1939-22 layer *)
From J1939 Require Import Model22.
From J1939.gen Require Import Tp22Gen.
From J1939P Require Import MpgProofs Net22 Net22Proofs Net22Bam.

(* a DM1 with 15 or more trouble codes (more than 60 bytes: an FD broadcast) reaches every listener of the other FD node as one
   payload that parses back to exactly the lamp states and the codes; the broadcast session number is back in the pool *)
Theorem dm1_over_fd_broadcast_end_to_end pl awl rsl mil dtcs sa t0 A0 B0 :
  lamp_state pl -> lamp_state awl -> lamp_state rsl -> lamp_state mil -> Forall dtc_ok dtcs ->
  15 <= Z.of_nat (length dtcs) < 4194303 -> 0 <= sa < 255 -> 0 < t0 ->
  0 < f_bam_iv A0 < tp22_T1 -> 2 * f_bam_iv A0 < tp22_T1 ->
  f_snd A0 = [] /\ f_rcv A0 = [] /\ f_mpg A0 = [] /\ n_timers (base A0) = [] /\ f_bam A0 = repeat true tp22_pool_bam ->
  f_snd B0 = [] /\ f_rcv B0 = [] /\ f_mpg B0 = [] /\ n_timers (base B0) = [] ->
  let p := dm1_build pl awl rsl mil dtcs in
  dm1_priority p = 7 /\
  exists j, let s := steps22 j (net22_send (net22_0 A0 B0 t0) 0 254 202 (dm1_priority p) sa p) in
    pa s = [] /\ pb s = [] /\ f_snd (fa s) = [] /\ f_rcv (fa s) = [] /\ f_snd (fb s) = [] /\ f_rcv (fb s) = [] /\
    f_bam (fa s) = repeat true tp22_pool_bam /\
    evb2 s = deliveries (base B0) 7 65226 sa addr_GLOBAL p /\
    dm1_parse p = Some ([pl; awl; rsl; mil], dtcs).
Proof.
  intros Hpl Hawl Hrsl Hmil Hok Hn Hsa Ht0 Hiv Hiv2 HA HB p.
  destruct (dm1_payload pl awl rsl mil dtcs Hpl Hawl Hrsl Hmil Hok ltac:(lia)) as (Hparse & Hlen & Hprio). fold p in Hparse, Hlen, Hprio.
  assert (Hlp : 60 < len p < 16777216) by lia.
  split; [exact Hprio|]. rewrite Hprio.
  destruct (bam_closed_loop22_delivers_any 7 sa 0 254 202 p t0 A0 B0 ltac:(lia) Hsa ltac:(right; lia) ltac:(lia) Hlp Ht0 Hiv Hiv2 HA HB)
    as (j & Q1 & Q2 & Q3 & Q4 & Q5 & Q6 & Q7 & Q8 & _).
  exists j. cbv zeta. repeat split; try assumption.
Qed.
