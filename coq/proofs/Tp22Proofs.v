(* Tp22Proofs.v — C06/C02 (J1939-22): exact payload or nothing on the FD responder.
   A data frame (process_tp_dt22) never delivers, changes nothing unless its segment number is the expected one (so after a
   lost segment every later one is ignored), and appends at most its payload.  The end-of-message status (process_tp_cm22)
   delivers iff size, segment count and collected length all agree with the announcement, and then exactly the collected
   bytes, once per matching subscriber; otherwise a connection-mode peer gets an abort; either way the session is released.
   Hence T06.1: ANY sequence of data frames carrying fewer bytes than announced, followed by ANY status, delivers nothing. *)
From J1939 Require Import Base CodecGlue Model21 Model22.
From J1939.gen Require Import Codec Tp21Gen CaGen Tp22Gen.
From J1939P Require Import CodecProofs Flat TimeoutProofs MpgProofs PoolProofs Steps22.
Local Arguments Z.add : simpl never.
Local Arguments Z.sub : simpl never.
Local Arguments Z.mul : simpl never.

Definition payload22 (data : list Z) : list Z := skipn 4 data.

Lemma dt22_no_delivery prio sa dest data now m : no_delivery (fouts22 (process_tp_dt22 prio sa dest data now m)).
Proof.
  unfold fouts22. destruct (dt22_cases prio sa dest data now m) as [->|(b & Hlen & Hne & G & Hnext)]; [reflexivity|].
  destruct (dt22_accepted prio sa dest data now m b Hlen Hne G Hnext) as (bd & dl & m' & os & r & -> & _ & _ & Hos).
  destruct Hos as [->|(border & mr & _ & _ & ->)]; reflexivity.
Qed.

Lemma dt22_effect prio sa dest data now m h0 b0 :
  tget (f_rcv m) h0 = Some b0 ->
  exists b', tget (f_rcv (fnode22 (process_tp_dt22 prio sa dest data now m))) h0 = Some b' /\ q_size b' = q_size b0 /\
             len (q_data b') <= len (q_data b0) + len (payload22 data).
Proof.
  intros G0. assert (Hpl : 0 <= len (payload22 data)) by (unfold len; lia). unfold fnode22.
  destruct (dt22_cases prio sa dest data now m) as [->|(b & Hlen & Hne & G & Hnext)].
  { exists b0. split; [exact G0|]. split; [reflexivity|lia]. }
  destruct (dt22_accepted prio sa dest data now m b Hlen Hne G Hnext) as (bd & dl & m' & os & r & -> & Hr & _).
  cbn [fst]. rewrite Hr. destruct (Z.eq_dec (tp22_hash (tp22_dt_session_num data) sa dest) h0) as [E|N].
  - (* the frame's own session: the payload is appended and the result cut at the announced size *)
    rewrite E, tget_tset_same. rewrite E, G0 in G. injection G as <-. eexists. split; [reflexivity|]. split; [reflexivity|].
    cbn [upd_q q_data]. unfold len, payload22. rewrite firstn_length, app_length. lia.
  - rewrite tget_tset_other by exact N. exists b0. split; [exact G0|]. split; [reflexivity|lia].
Qed.

Theorem dt22_out_of_sequence_ignored prio sa dest data now m b :
  tget (f_rcv m) (tp22_hash (tp22_dt_session_num data) sa dest) = Some b ->
  q_next b <> tp22_dt_segment_num data ->
  flat22 (process_tp_dt22 prio sa dest data now m) = (m, [], RDone 0).
Proof.
  intros G Hne. destruct (dt22_cases prio sa dest data now m) as [->|(b' & _ & _ & G' & Hnext)]; [reflexivity|].
  rewrite G in G'. injection G' as <-. contradiction.
Qed.

(* ---------------------------------------------------------------- end-of-message status *)
Definition eom_frame_ok (data : list Z) : Prop :=
  (12 <= length data)%nat /\ tp22_cm_control_byte data = tp22_ctl_EOM_STATUS.

Lemma ctl_eom_dispatch data : eom_frame_ok data ->
  (length data <? 12)%nat = false /\ (tp22_cm_control_byte data =? tp22_ctl_RTS) = false /\
  (tp22_cm_control_byte data =? tp22_ctl_CTS) = false /\ (tp22_cm_control_byte data =? tp22_ctl_EOM_STATUS) = true.
Proof. intros [H1 H2]. rewrite H2. repeat split; try reflexivity. apply Nat.ltb_ge. exact H1. Qed.

(* the EOM_STATUS branch of _process_tp_cm for an open session as one equation; the two theorems below are its two cases *)
Lemma eom_status_flat prio sa dest data now m b :
  eom_frame_ok data -> tget (f_rcv m) (tp22_hash (tp22_cm_session_num data) sa dest) = Some b ->
  flat22 (process_tp_cm22 prio sa dest data now m) =
  let ok := (q_size b =? tp22_cm_message_size data) && (q_nseg b =? tp22_cm_segment_num data) &&
            (len (q_data b) =? tp22_cm_message_size data) in
  (set_frcv m (tdel (f_rcv m) (tp22_hash (tp22_cm_session_num data) sa dest)),
   (if ok then deliveries (base m) prio (q_pgn b) sa dest (q_data b) else []) ++
   (if dest =? addr_GLOBAL then []
    else [OTx (if ok then tp22_eom_ack dest sa (tp22_cm_session_num data) (tp22_cm_message_size data) (tp22_cm_segment_num data) (q_pgn b)
               else tp22_abort dest sa (tp22_cm_session_num data) tp22_reason_RESOURCES (q_pgn b))]),
   RDone 0).
Proof.
  intros Hok G. destruct (ctl_eom_dispatch data Hok) as (E0 & E1 & E2 & E3).
  unfold process_tp_cm22. rewrite E0, E1, E2, E3, G. cbv zeta.
  destruct ((q_size b =? _) && _ && _); [rewrite flat22_notify_subscribers|];
    destruct (dest =? addr_GLOBAL); cbn [negb flat22]; rewrite (tmem_get _ _ _ G); reflexivity.
Qed.

Theorem eom_status_delivers_exactly prio sa dest data now m b :
  eom_frame_ok data ->
  let h := tp22_hash (tp22_cm_session_num data) sa dest in
  tget (f_rcv m) h = Some b ->
  q_size b = tp22_cm_message_size data -> q_nseg b = tp22_cm_segment_num data -> len (q_data b) = q_size b ->
  fouts22 (process_tp_cm22 prio sa dest data now m) =
    deliveries (base m) prio (q_pgn b) sa dest (q_data b) ++
    (if dest =? addr_GLOBAL then []
     else [OTx (tp22_eom_ack dest sa (tp22_cm_session_num data) (tp22_cm_message_size data) (tp22_cm_segment_num data) (q_pgn b))]) /\
  f_rcv (fnode22 (process_tp_cm22 prio sa dest data now m)) = tdel (f_rcv m) h.
Proof.
  intros Hok h G Hs Hn Hl. unfold fouts22, fnode22. rewrite (eom_status_flat _ _ _ _ _ _ b Hok G). cbv zeta.
  assert ((q_size b =? tp22_cm_message_size data) && (q_nseg b =? tp22_cm_segment_num data) && (len (q_data b) =? tp22_cm_message_size data) = true) as -> by lia.
  split; reflexivity.
Qed.

Theorem eom_status_mismatch_delivers_nothing prio sa dest data now m b :
  eom_frame_ok data ->
  let h := tp22_hash (tp22_cm_session_num data) sa dest in
  tget (f_rcv m) h = Some b ->
  ~ (q_size b = tp22_cm_message_size data /\ q_nseg b = tp22_cm_segment_num data /\ len (q_data b) = tp22_cm_message_size data) ->
  fouts22 (process_tp_cm22 prio sa dest data now m) =
    (if dest =? addr_GLOBAL then []
     else [OTx (tp22_abort dest sa (tp22_cm_session_num data) tp22_reason_RESOURCES (q_pgn b))]) /\
  f_rcv (fnode22 (process_tp_cm22 prio sa dest data now m)) = tdel (f_rcv m) h.
Proof.
  intros Hok h G Hne. unfold fouts22, fnode22. rewrite (eom_status_flat _ _ _ _ _ _ b Hok G). cbv zeta.
  assert ((q_size b =? tp22_cm_message_size data) && (q_nseg b =? tp22_cm_segment_num data) && (len (q_data b) =? tp22_cm_message_size data) = false) as -> by lia.
  split; reflexivity.
Qed.

Theorem eom_status_without_session prio sa dest data now m :
  eom_frame_ok data -> tget (f_rcv m) (tp22_hash (tp22_cm_session_num data) sa dest) = None ->
  flat22 (process_tp_cm22 prio sa dest data now m) = (m, [], RDone 0).
Proof.
  intros Hok G. destruct (ctl_eom_dispatch data Hok) as (E0 & E1 & E2 & E3).
  unfold process_tp_cm22. rewrite E0, E1, E2, E3, G. reflexivity.
Qed.

(* ---------------------------------------------------------------- any data frames, then any status frame *)
Fixpoint feed_dt22 (prio sa dest : Z) (frames : list (list Z * Z)) (m : node22) : node22 * list out :=
  match frames with
  | [] => (m, [])
  | (data, now) :: fs =>
      let a := process_tp_dt22 prio sa dest data now m in
      let '(m2, o2) := feed_dt22 prio sa dest fs (fnode22 a) in (m2, fouts22 a ++ o2)
  end.

Lemma feed_dt22_effect prio sa dest h0 : forall frames m b0,
  tget (f_rcv m) h0 = Some b0 ->
  no_delivery (snd (feed_dt22 prio sa dest frames m)) /\
  exists b', tget (f_rcv (fst (feed_dt22 prio sa dest frames m))) h0 = Some b' /\ q_size b' = q_size b0 /\
             len (q_data b') <= len (q_data b0) + fold_right (fun f acc => len (payload22 (fst f)) + acc) 0 frames.
Proof.
  induction frames as [|[data now] fs IH]; intros m b0 G0; cbn [feed_dt22 fold_right fst snd].
  - split; [reflexivity|]. exists b0. repeat split; try assumption; lia.
  - destruct (dt22_effect prio sa dest data now m h0 b0 G0) as (b1 & G1 & Hs1 & Hl1).
    destruct (IH (fnode22 (process_tp_dt22 prio sa dest data now m)) b1 G1) as (Hnd2 & b2 & G2 & Hs2 & Hl2).
    destruct (feed_dt22 prio sa dest fs (fnode22 (process_tp_dt22 prio sa dest data now m))) as [m2 o2]. cbn [fst snd] in *.
    split; [apply no_delivery_app; [apply dt22_no_delivery|exact Hnd2]|].
    exists b2. split; [exact G2|]. split; [congruence|]. lia.
Qed.

(* T06.1 (FD): exact payload or nothing.  Whatever FD data frames arrive for a session (any segment numbers, any
   order, any repetition, any instants) — if together they carry fewer bytes than the announced size (at least one
   segment lost), then neither they nor ANY end-of-message status that follows deliver anything to any listener *)
Theorem fd_lost_segment_never_delivers prio sa dest frames eom now m b0 :
  eom_frame_ok eom ->
  let h := tp22_hash (tp22_cm_session_num eom) sa dest in
  tget (f_rcv m) h = Some b0 ->
  len (q_data b0) + fold_right (fun f acc => len (payload22 (fst f)) + acc) 0 frames < q_size b0 ->
  let '(m1, o1) := feed_dt22 prio sa dest frames m in
  no_delivery (o1 ++ fouts22 (process_tp_cm22 prio sa dest eom now m1)).
Proof.
  intros Hok h G0 Hlt.
  destruct (feed_dt22_effect prio sa dest h frames m b0 G0) as (Hnd & b1 & G1 & Hs1 & Hl1).
  destruct (feed_dt22 prio sa dest frames m) as [m1 o1]. cbn [fst snd] in *.
  apply no_delivery_app; [exact Hnd|].
  destruct (eom_status_mismatch_delivers_nothing prio sa dest eom now m1 b1 Hok G1) as [Ho _].
  { intros (A & _ & C). lia. }
  rewrite Ho. destruct (dest =? addr_GLOBAL); reflexivity.
Qed.
