(* Dm14SrvProofs.v — C19/C18/C17 on the serving-side state machine (theories/Dm14Srv.v).
   C19  intruder_does_not_disturb: while a transaction with requester r runs, ANY message from another source address —
        any PGN, any data, well-formed or not — delivered to the CA (whatever callbacks are registered, in whatever
        order and multiplicity) leaves EVERY field of the server, the facade and the subscriber list unchanged, hands
        nothing to the application, and the only frames it can cause are DM15 'operation failed' addressed to it.
   C18  key_gate_listen: with seed/key configured, the application is asked / notified by a DM14 only when the key in
        that DM14 is the key of the seed the server sent.
   C17  read / write transactions: the DM16 the server sends carries exactly the bytes of respond(); the bytes handed
        back by respond() for a write are exactly those of the client's DM16. *)
From J1939 Require Import Base Dm14Srv.
From J1939 Require Dm14Model.
From J1939P Require Dm14Proofs.
Open Scope Z_scope.

(* ---------------------------------------------------------------- the Python list helpers of Dm14Srv.v, index inside the list *)
Lemma set_nth_nth : forall (l : list Z) i x d, (i < length l)%nat -> nth i (set_nth l i x) d = x.
Proof. induction l as [|y r IH]; intros [|i] x d H; cbn in *; try lia; try reflexivity. apply IH. lia. Qed.
Lemma set_nth_other : forall (l : list Z) i j x d, i <> j -> nth j (set_nth l i x) d = nth j l d.
Proof. induction l as [|y r IH]; intros [|i] [|j] x d H; cbn; try reflexivity; try lia. apply IH. lia. Qed.
Lemma set_nth_length : forall (l : list Z) i x, length (set_nth l i x) = length l.
Proof. induction l as [|y r IH]; intros [|i] x; cbn; try reflexivity. f_equal. apply IH. Qed.
Lemma zlen_set_nth l i x : zlen (set_nth l i x) = zlen l.
Proof. unfold zlen. rewrite set_nth_length. reflexivity. Qed.
Lemma zlen_repeat x n : 0 <= n -> zlen (repeat x (Z.to_nat n)) = n.
Proof. intros H. unfold zlen. rewrite repeat_length. lia. Qed.

Lemma norm_idx_in n i : 0 <= i < n -> norm_idx n i = Some i.
Proof.
  intros H. unfold norm_idx. assert ((i <? 0) = false) as -> by lia.
  assert (((i <? 0) || (i >=? n)) = false) as -> by lia. reflexivity.
Qed.
Lemma py_get_in l i : 0 <= i < zlen l -> py_get l i = nth_error l (Z.to_nat i).
Proof. intros H. unfold py_get. rewrite (norm_idx_in _ _ H). reflexivity. Qed.
Lemma py_put_in l i x : 0 <= i < zlen l -> py_put l i x = Some (set_nth l (Z.to_nat i) x).
Proof. intros H. unfold py_put. rewrite (norm_idx_in _ _ H). reflexivity. Qed.
Lemma py_slice_in l lo hi : 0 <= lo <= hi -> hi <= zlen l -> py_slice l lo hi = firstn (Z.to_nat (hi - lo)) (skipn (Z.to_nat lo) l).
Proof.
  intros H1 H2. unfold py_slice. assert (A : (hi <? 0) = false) by lia. rewrite A. cbv iota. rewrite A.
  assert ((hi >? zlen l) = false) as -> by lia. assert ((lo >? zlen l) = false) as -> by lia.
  destruct (hi <=? lo) eqn:E; [|reflexivity]. replace (hi - lo) with 0 by lia. reflexivity.
Qed.
Lemma py_get_0 d0 rest : py_get (d0 :: rest) 0 = Some d0.
Proof. reflexivity. Qed.
Lemma py_get_1 d0 d1 rest : py_get (d0 :: d1 :: rest) 1 = Some d1.
Proof. apply py_get_in. unfold zlen. cbn [length]. lia. Qed.

Lemma py_put_spec l i x l' : py_put l i x = Some l' ->
  exists j, norm_idx (zlen l) i = Some j /\ l' = set_nth l (Z.to_nat j) x /\ 0 <= j < zlen l.
Proof.
  unfold py_put. destruct (norm_idx (zlen l) i) as [j|] eqn:E; [|discriminate].
  intros [= <-]. exists j. split; [reflexivity|]. split; [reflexivity|].
  unfold norm_idx in E. destruct (_ || _) eqn:E2; [discriminate|]. injection E as <-. lia.
Qed.

Lemma opt_case {A} (Q : R -> Prop) s (o : option A) x f : Q (raise s x) -> (forall a, o = Some a -> Q (f a)) -> Q (opt s o x f).
Proof. intros Hr Hf. destruct o; [exact (Hf _ eq_refl)|exact Hr]. Qed.

Lemma set_busy_same s : v_busy s = false -> set_busy s false = s.
Proof. intros H. destruct s; cbn in *; subst; reflexivity. Qed.

(* ---------------------------------------------------------------- _send_dm15 *)
(* Whatever its arguments, _send_dm15 ends by raising or by sending ONE frame: PF 0xD8 (DM15), priority 6, to [sa].  The
   server it leaves behind has the queue it found, and in the state SEND_ERROR is the one it found.
   Every property of send_dm15 below is read off this one case analysis. *)
Definition dm15_keeps (s : srv) (state : Z) (s' : srv) : Prop :=
  v_queue s' = v_queue s /\ (state = R_SEND_ERROR -> s' = s).

Lemma send_dm15_shape (Q : R -> Prop) s l d st state oc sa er ed :
  (forall s' x, dm15_keeps s state s' -> Q (raise s' x)) ->
  (forall s' a dat, dm15_keeps s state s' -> sa = Some a -> Q (emit s' (SSend 216 (Z.land a 255) 6 dat))) ->
  Q (send_dm15 s l d st state oc sa er ed).
Proof.
  intros Hr He. unfold send_dm15.
  assert (K0 : dm15_keeps s state s) by (split; reflexivity).
  apply opt_case; [exact (Hr s _ K0)|intros d1 _].
  destruct (Z.eqb_spec state R_WAIT_FOR_KEY) as [->|_].
  { destruct (match seeds s with x :: r => (x, r) | [] => (48879, []) end) as [sd rest].
    assert (K : dm15_keeps s R_WAIT_FOR_KEY (set_seeds (set_seed s (Some sd)) rest)) by (split; [reflexivity|discriminate]).
    repeat (apply opt_case; [exact (Hr _ _ K)|intros ? ?]). eapply He; eassumption. }
  destruct (state =? R_SEND_PROCEED).
  { repeat (apply opt_case; [exact (Hr _ _ K0)|intros ? ?]). eapply He; eassumption. }
  destruct (Z.eqb_spec state R_SEND_OPCOMPLETE) as [->|_].
  { assert (K : forall s', v_queue s' = v_queue s -> dm15_keeps s R_SEND_OPCOMPLETE s') by (split; [assumption|discriminate]).
    repeat (apply opt_case; [apply Hr, K; reflexivity|intros ? ?]). eapply He; [apply K; reflexivity|eassumption]. }
  destruct (state =? R_SEND_ERROR); [|exact (Hr _ _ K0)].
  repeat (apply opt_case; [exact (Hr _ _ K0)|intros ? ?]). eapply He; eassumption.
Qed.

Lemma send_dm15_queue s l d st state oc sa er ed :
  v_queue (fst (fst (send_dm15 s l d st state oc sa er ed))) = v_queue s.
Proof. apply (send_dm15_shape (fun r => v_queue (fst (fst r)) = v_queue s)); [intros s' x K|intros s' a dat K _]; exact (proj1 K). Qed.

(* ---------------------------------------------------------------- C19: one callback *)
Definition busy_frame_to (x : Z) (o : sout) : Prop :=
  match o with SSend pf dest prio d => pf = 216 /\ dest = Z.land x 255 /\ prio = 6 | _ => False end.

Definition quiet (s : srv) (x : Z) (r : R) : Prop :=
  let '(s', os, e) := r in s' = s /\ Forall (busy_frame_to x) os.

(* [ok s] and [raise s e] *)
Lemma quiet_silent s x e : quiet s x (s, [], e).
Proof. split; [reflexivity|constructor]. Qed.
Lemma quiet_bind s x (r : R) f : quiet s x r -> quiet s x (f s) -> quiet s x (r >>= f).
Proof.
  destruct r as [[s1 os] e]. intros [-> F] Hf. unfold bind. destruct e; [split; [reflexivity|exact F]|].
  destruct (f s) as [[s2 o2] e2]. destruct Hf as [-> F2]. split; [reflexivity|apply Forall_app; split; assumption].
Qed.

(* the 'operation failed' DM15 (its layout for the regular length 8 is C19_busy_answer_layout) *)
Lemma send_error_quiet s length direct d0 x er :
  quiet s x (send_dm15 s length direct 5 R_SEND_ERROR (Some d0) (Some x) (Some er) (Some 7)).
Proof.
  apply send_dm15_shape.
  - intros s' e [_ H]. rewrite (H eq_refl). apply quiet_silent.
  - intros s' a dat [_ H] [= <-]. rewrite (H eq_refl). split; [reflexivity|]. repeat constructor.
Qed.

(* a transaction with requester r is running: from its first DM14 (waiting for the key, or for the application's
   respond) until the closing DM14 has been received (server not idle) *)
Definition running (s : srv) (r : Z) : Prop :=
  v_sa s = Some r /\ v_busy s = false /\
  ((a_state s = D_REQUEST_STARTED /\ v_state s = R_WAIT_FOR_KEY) \/ a_state s = D_WAIT_RESPONSE \/
   (a_state s = D_IDLE /\ v_state s <> R_IDLE)).

(* the guard of parse_dm14, in the shape it unfolds to *)
Lemma guard_fires (a b c : bool) : a = true \/ b = true -> a || (if a then false else b) || c = true.
Proof. destruct a; [reflexivity|]. intros [H|H]; [discriminate H|rewrite H; reflexivity]. Qed.

Lemma parse_dm14_guarded c s x pgn data :
  v_busy s = false ->
  ((match v_sa s with Some r => negb (x =? r) | None => false end) = true \/
   (match v_addr s with Some a => negb (zlist_eqb a (py_slice data 2 (v_length s - 2))) | None => false end) = true) ->
  quiet s x (parse_dm14 c s pgn x data).
Proof.
  intros Hb Hg. unfold parse_dm14. destruct (negb (pgn =? PGN_DM14)); [apply quiet_silent|].
  rewrite (guard_fires _ _ (v_busy s) Hg). do 2 (apply opt_case; [apply quiet_silent|intros ? _]).
  apply quiet_bind; [apply send_error_quiet|]. rewrite (set_busy_same s Hb). apply quiet_silent.
Qed.

Lemma parse_dm16_other s r x pgn data : v_sa s = Some r -> x <> r -> parse_dm16 s pgn x data = ok s.
Proof.
  intros Hsa Hx. unfold parse_dm16. rewrite Hsa. assert ((x =? r) = false) as -> by lia.
  rewrite orb_true_r. reflexivity.
Qed.

Lemma listen_guarded c s r x pgn data :
  running s r -> quiet s x (parse_dm14 c s pgn x data) -> quiet s x (listen_for_dm14 c s pgn x data).
Proof.
  intros (_ & _ & Hph) Hq. unfold listen_for_dm14. destruct (negb (pgn =? PGN_DM14)); [apply quiet_silent|].
  destruct Hph as [[Ha Hv]|[Ha|[Ha Hv]]]; rewrite Ha.
  - apply quiet_bind; [exact Hq|]. rewrite Hv. apply quiet_silent.
  - apply quiet_silent.
  - assert ((v_state s =? R_IDLE) = false) as -> by lia. apply quiet_silent.
Qed.

(* ---------------------------------------------------------------- C19: the whole delivery *)
(* whatever callbacks are registered, in whatever order and multiplicity *)
Lemma dispatch_quiet c s r x pgn data :
  running s r -> quiet s x (parse_dm14 c s pgn x data) -> quiet s x (parse_dm16 s pgn x data) ->
  forall fuel i, quiet s x (dispatch fuel c i s pgn x data).
Proof.
  intros Hr H14 H16. induction fuel as [|f IH]; intros i; cbn [dispatch]; [apply quiet_silent|].
  destruct (nth_error (subs s) i) as [cb|]; [|apply quiet_silent].
  apply quiet_bind; [|apply IH].
  destruct (cb =? CB_LISTEN); [exact (listen_guarded c s r x pgn data Hr H14)|].
  destruct (cb =? CB_P14); [exact H14|]. destruct (cb =? CB_P16); [exact H16|apply quiet_silent].
Qed.

(* C19: a message from ANOTHER source address — any PGN, any data — while a transaction runs *)
Theorem intruder_does_not_disturb c s r x pgn data :
  running s r -> x <> r -> quiet s x (deliver c s pgn x data).
Proof.
  intros Hr Hx. pose proof Hr as (Hsa & Hb & _). unfold deliver. apply (dispatch_quiet c s r); [exact Hr| |].
  - apply parse_dm14_guarded; [exact Hb|]. left. rewrite Hsa. lia.
  - rewrite (parse_dm16_other s r x pgn data Hsa Hx). apply quiet_silent.
Qed.

(* C19: a DM14 from the requester's OWN address naming another pointer is not served in its place either *)
Theorem other_pointer_not_served c s r a data :
  running s r -> v_addr s = Some a -> zlist_eqb a (py_slice data 2 (v_length s - 2)) = false ->
  quiet s r (deliver c s PGN_DM14 r data).
Proof.
  intros Hr Ha Hne. pose proof Hr as (_ & Hb & _). unfold deliver. apply (dispatch_quiet c s r); [exact Hr| |].
  - apply parse_dm14_guarded; [exact Hb|]. right. rewrite Ha, Hne. reflexivity.
  - apply quiet_silent.
Qed.

(* nothing reaches the application and nothing but DM15 frames to the intruder leaves the node: restated on outputs *)
Corollary intruder_outputs c s r x pgn data :
  running s r -> x <> r ->
  let '(s', os, e) := deliver c s pgn x data in
  s' = s /\ forall o, In o os -> match o with SSend pf dest _ _ => pf = 216 /\ dest = Z.land x 255 | _ => False end.
Proof.
  intros Hr Hx. pose proof (intruder_does_not_disturb c s r x pgn data Hr Hx) as H.
  destruct (deliver c s pgn x data) as [[s' os] e]. destruct H as [E F]. split; [exact E|].
  intros o Ho. rewrite Forall_forall in F. specialize (F o Ho). destruct o; cbn in F; try contradiction.
  destruct F as (A & B & _). split; assumption.
Qed.

(* ---------------------------------------------------------------- the phases of a transaction ARE running states *)
(* non-vacuity, by evaluation: a read with seed/key, at every point between its first DM14 and the closing DM14 *)
Definition ex_cfg : cfg := {| c_seedsec := true; c_hasproceed := true; c_key := fun sd => Z.lxor sd 65535 |}.
Definition ex_ops : list sop :=
  [OpMsg PGN_DM14 249 [4; 19; 0; 16; 0; 0; 255; 255];                       (* read 4 objects at 0x1000 *)
   OpMsg PGN_DM14 249 [4; 19; 0; 16; 0; 0; 165; 90];                        (* key of seed 0xA55A *)
   OpRespond true [1; 2; 3; 4] 16777215 255 []].
Fixpoint states_after (c : cfg) (s : srv) (ops : list sop) : list srv :=
  match ops with [] => [] | o :: r => let '(s1, _, _) := sstep c s o in s1 :: states_after c s1 r end.
Definition runningb (s : srv) (r : Z) : bool :=
  (match v_sa s with Some a => a =? r | None => false end) && negb (v_busy s) &&
  (((a_state s =? D_REQUEST_STARTED) && (v_state s =? R_WAIT_FOR_KEY)) || (a_state s =? D_WAIT_RESPONSE) ||
   ((a_state s =? D_IDLE) && negb (v_state s =? R_IDLE))).
Lemma runningb_ok s r : runningb s r = true -> running s r.
Proof.
  unfold runningb, running. destruct (v_sa s) as [a|]; [|discriminate].
  destruct (v_busy s); [rewrite andb_false_r; discriminate|]. intros H.
  split; [f_equal; lia|]. split; [reflexivity|lia].
Qed.
Example phases_are_running :
  forallb (fun s => runningb s 249) (states_after ex_cfg (init_srv [42330] []) ex_ops) = true /\
  length (states_after ex_cfg (init_srv [42330] []) ex_ops) = 3%nat.
Proof. vm_compute. split; reflexivity. Qed.

(* ---------------------------------------------------------------- C18: the key gate, for EVERY state and message *)
(* what may be handed to the application: only a request whose key is the key of its seed *)
Definition right_key (c : cfg) (o : sout) : Prop :=
  match o with SProceedFn _ _ _ _ _ key _ _ seed => c_key c seed = key | _ => True end.
Definition asked (os : list sout) : Prop := exists cmd ad pt l oc k a acc sd, In (SProceedFn cmd ad pt l oc k a acc sd) os.
Definition gated (c : cfg) (r : R) : Prop :=
  let '(_, os, _) := r in Forall (right_key c) os /\ (In SNotify os -> asked os).

Lemma asked_app os1 os2 : asked os1 \/ asked os2 -> asked (os1 ++ os2).
Proof.
  intros [H|H]; destruct H as (a1 & a2 & a3 & a4 & a5 & a6 & a7 & a8 & a9 & Hin); exists a1, a2, a3, a4, a5, a6, a7, a8, a9;
    apply in_or_app; auto.
Qed.

Lemma gated_silent c s e : gated c (s, [], e).
Proof. split; [constructor|intros []]. Qed.
Lemma gated_send c s pf dest prio d : gated c (emit s (SSend pf dest prio d)).
Proof. split; [repeat constructor|intros [H|[]]; discriminate H]. Qed.
Lemma gated_bind c (r : R) (f : srv -> R) : gated c r -> (forall s, gated c (f s)) -> gated c (r >>= f).
Proof.
  destruct r as [[s os] e]. intros [H1 H2] Hf. unfold bind. destruct e; [split; assumption|].
  specialize (Hf s). destruct (f s) as [[s2 o2] e2]. destruct Hf as [G1 G2]. split.
  - apply Forall_app. split; assumption.
  - intros Hn. apply asked_app. apply in_app_or in Hn. tauto.
Qed.

Lemma send_dm15_gated c s l d st state oc sa er ed : gated c (send_dm15 s l d st state oc sa er ed).
Proof. apply send_dm15_shape; intros; [apply gated_silent|apply gated_send]. Qed.

Lemma parse_dm14_gated c s pgn sa data : gated c (parse_dm14 c s pgn sa data).
Proof.
  unfold parse_dm14. destruct (negb (pgn =? PGN_DM14)); [apply gated_silent|].
  destruct (_ || _ || v_busy s).
  - repeat (apply opt_case; [apply gated_silent|intros ? _]). apply gated_bind; [apply send_dm15_gated|intros; apply gated_silent].
  - apply opt_case; [apply gated_silent|intros d1 _].
    destruct (_ =? R_IDLE).
    { repeat (apply opt_case; [apply gated_silent|intros ? _]). destruct (c_seedsec c); [apply send_dm15_gated|apply gated_silent]. }
    destruct (_ =? R_WAIT_FOR_KEY); [repeat (apply opt_case; [apply gated_silent|intros ? _]); apply gated_silent|].
    destruct (_ =? R_WAIT_OPCOMPLETE); apply gated_silent.
Qed.

Lemma parse_dm16_gated c s pgn sa data : gated c (parse_dm16 s pgn sa data).
Proof.
  unfold parse_dm16. destruct (_ || _); [apply gated_silent|]. apply opt_case; [apply gated_silent|intros d0 _]. apply send_dm15_gated.
Qed.

Lemma refuse_gated c s err pgn sa data : gated c (refuse c s err pgn sa data).
Proof. unfold refuse. apply gated_bind; [apply parse_dm14_gated|intros; apply gated_silent]. Qed.

(* the tail of listen_for_dm14 in REQUEST_STARTED, once the key has been compared *)
Lemma ask_then c s key seed pgn sa data :
  c_key c seed = key ->
  gated c (let '(r, ans) := ask_application s key seed in
           r >>= (fun s3 => if ans then emit s3 SNotify else refuse c s3 256 pgn sa data)).
Proof.
  intros Hk. unfold ask_application.
  destruct (v_command s) as [cmd|]; [|apply gated_silent]. destruct (v_addr s) as [ad|]; [|apply gated_silent].
  destruct (v_ptype s) as [pt|]; [|apply gated_silent]. destruct (v_objcnt s) as [oc|]; [|apply gated_silent].
  destruct (v_sa s) as [a|]; [|apply gated_silent]. destruct (v_access s) as [acc|]; [|apply gated_silent].
  destruct (match answers s with x :: r => (x, r) | [] => (true, []) end) as [[|] rest].
  - split; [repeat constructor; exact Hk|]. intros _. do 9 eexists. left. reflexivity.
  - apply gated_bind; [|intros; apply refuse_gated]. split; [repeat constructor; exact Hk|intros [H|[]]; discriminate H].
Qed.

(* T18.1 (state-machine form): with seed/key configured, whatever state the server and the facade are in and whatever
   DM14 arrives, the application is asked (proceed callback) only with a key that is the key of the seed, and it is
   notified only after having been asked so *)
Theorem key_gate_listen c s pgn sa data :
  c_seedsec c = true -> gated c (listen_for_dm14 c s pgn sa data).
Proof.
  intros Hsec. unfold listen_for_dm14. destruct (negb (pgn =? PGN_DM14)); [apply gated_silent|].
  destruct (a_state s =? D_IDLE).
  { destruct (v_state s =? R_IDLE); [|apply gated_silent].
    apply gated_bind; [apply parse_dm14_gated|]. intros s1. rewrite Hsec. apply gated_silent. }
  destruct (a_state s =? D_REQUEST_STARTED).
  { apply gated_bind; [apply parse_dm14_gated|]. intros s1.
    destruct (v_state s1 =? R_SEND_PROCEED); [|apply gated_silent].
    rewrite Hsec.
    destruct (v_seed (set_astate s1 D_WAIT_RESPONSE)) as [sd|]; [|apply gated_silent].
    destruct (v_key (set_astate s1 D_WAIT_RESPONSE)) as [ky|]; [|apply refuse_gated].
    destruct (c_key c sd =? ky) eqn:Ek; [|apply refuse_gated].
    destruct (c_hasproceed c); [|apply gated_silent].
    apply ask_then. lia. }
  destruct (a_state s =? D_WAIT_QUERY); [|apply gated_silent].
  apply gated_bind; [apply parse_dm14_gated|intros; apply gated_silent].
Qed.

Lemma dispatch_gated c pgn sa data : c_seedsec c = true ->
  forall fuel s i, gated c (dispatch fuel c i s pgn sa data).
Proof.
  intros Hsec. induction fuel as [|f IH]; intros s i; cbn [dispatch]; [apply gated_silent|].
  destruct (nth_error (subs s) i) as [cb|]; [|apply gated_silent].
  apply gated_bind; [|intros s1; apply IH].
  destruct (cb =? CB_LISTEN); [apply key_gate_listen; exact Hsec|].
  destruct (cb =? CB_P14); [apply parse_dm14_gated|].
  destruct (cb =? CB_P16); [apply parse_dm16_gated|apply gated_silent].
Qed.
Theorem key_gate_deliver c s pgn sa data :
  c_seedsec c = true -> gated c (deliver c s pgn sa data).
Proof. intros Hsec. unfold deliver. apply dispatch_gated. exact Hsec. Qed.

(* a wrong key is answered with error 0x1003 and the request forgotten (decision level: C18_key_gate) — here: the
   application sees nothing of it *)
Corollary wrong_key_never_reaches_application c s pgn sa data :
  c_seedsec c = true ->
  let '(_, os, _) := deliver c s pgn sa data in
  forall cmd ad pt l oc k a acc sd, In (SProceedFn cmd ad pt l oc k a acc sd) os -> c_key c sd = k.
Proof.
  intros Hsec. pose proof (key_gate_deliver c s pgn sa data Hsec) as H.
  destruct (deliver c s pgn sa data) as [[s' os] e]. destruct H as [H _].
  intros cmd ad pt l oc k a acc sd Hin. rewrite Forall_forall in H. exact (H _ Hin).
Qed.

(* ---------------------------------------------------------------- C17: the data of a read *)
Notation dm16_extract := Dm14Model.dm16_extract.

Definition server_dm16 (s : srv) : list Z :=
  (if zlen (v_data s) >? 7 then 255 else zlen (v_data s)) :: v_data s ++ repeat 255 (Z.to_nat (v_length s - zlen (v_data s) - 1)).

(* the DM16 the server sends carries exactly the bytes of respond(): one frame to the requester, PF 0xD7 *)
Theorem send_dm16_carries_data s a :
  v_sa s = Some a ->
  exists s', send_dm16 s = (s', [SSend 215 (Z.land a 255) 7 (server_dm16 s)], None) /\ v_data s' = v_data s /\ v_sa s' = v_sa s /\
             v_state s' = v_state s.
Proof.
  intros Ha. unfold send_dm16, opt, server_dm16.
  destruct (zlen (v_data s) >? 7); [change (v_sa (subscribe s CB_P16)) with (v_sa s)|]; rewrite Ha; eexists; repeat split; exact Ha.
Qed.

(* ... and what the client extracts from that frame (Dm14Model.dm16_extract, the client's rule) is exactly the data,
   for every data length 1..255 (request length 8, the DM14 of J1939-21) *)
Theorem server_dm16_extracts s :
  v_length s = 8 -> (1 <= length (v_data s) <= 255)%nat -> dm16_extract (server_dm16 s) = v_data s.
Proof.
  intros Hl H. apply (Dm14Proofs.dm16_extract_frame (v_data s)); [lia|]. intros H7. unfold zlen. rewrite Hl.
  replace (Z.to_nat _) with 0%nat by lia. reflexivity.
Qed.

(* ---------------------------------------------------------------- C17: the data of a write *)
(* the client's extraction rule in the server's terms: data[1 : min(data[0], len(data) - 1) + 1] *)
Lemma py_slice_dm16 d0 rest : 0 <= d0 -> py_slice (d0 :: rest) 1 (Z.min d0 (zlen (d0 :: rest) - 1) + 1) = dm16_extract (d0 :: rest).
Proof.
  intros H0. assert (E : zlen (d0 :: rest) - 1 = Z.of_nat (length rest)) by (unfold zlen; cbn [length]; lia).
  rewrite E, py_slice_in by lia. rewrite Z.add_simpl_r. reflexivity.
Qed.

(* a DM16 from the requester while the server waits for the data of a write: EXACTLY the bytes the client's frame
   carries (the same extraction rule as on the client side) are queued for respond(), nothing else *)
Theorem parse_dm16_stores s a d0 rest :
  v_state s = R_WAIT_FOR_DM16 -> v_sa s = Some a -> 0 <= d0 ->
  v_queue (fst (fst (parse_dm16 s PGN_DM16 a (d0 :: rest)))) = v_queue s ++ [dm16_extract (d0 :: rest)].
Proof.
  intros Hst Hsa H0. unfold parse_dm16. rewrite Hsa, Hst, py_get_0, !Z.eqb_refl. cbn [negb orb opt].
  rewrite (py_slice_dm16 d0 rest H0), send_dm15_queue. reflexivity.
Qed.

(* respond() of a write returns the head of that queue: the bytes of the FIRST DM16 that arrived while it waited *)
Theorem respond_write_returns c s proceed data er ed during :
  let s1 := set_state (set_status (set_edcp (set_error (set_data (set_proceed s proceed) data) er) ed) (if proceed then 0 else 5))
                      (if proceed then R_SEND_PROCEED else R_SEND_ERROR) in
  forall s2 o2, wait_for_data s1 = (s2, o2, None) -> v_state s2 = R_WAIT_FOR_DM16 ->
  forall s3 o3 d q, deliver_all c s2 during = (s3, o3) -> v_queue s3 = d :: q ->
  srv_respond c s proceed data er ed during = (set_queue s3 q, o2 ++ o3, RetData d).
Proof.
  intros s1 s2 o2 Hw Hst s3 o3 d q Hd Hq. unfold srv_respond. fold s1. rewrite Hw, Hst.
  change (R_WAIT_FOR_DM16 =? R_WAIT_FOR_DM16) with true. cbv iota. rewrite Hd, Hq. reflexivity.
Qed.

(* non-vacuity, by evaluation: a complete write of 3 bytes without seed/key — request, respond() waiting, the
   client's DM16 arriving meanwhile, closing DM14 — hands back exactly [7; 8; 9] and leaves everything idle *)
Example write_transaction :
  let c := {| c_seedsec := false; c_hasproceed := true; c_key := fun x => x |} in
  let '(s1, o1, _) := sstep c (init_srv [] []) (OpMsg PGN_DM14 249 [3; 21; 0; 16; 0; 0; 255; 255]) in
  let '(s2, o2, r2) := sstep c s1 (OpRespond true [] 16777215 255 [(PGN_DM16, 249, [3; 7; 8; 9; 255; 255; 255; 255])]) in
  let '(s3, o3, _) := sstep c s2 (OpMsg PGN_DM14 249 [3; 25; 0; 16; 0; 0; 255; 255]) in
  r2 = RetData [7; 8; 9] /\ v_state s3 = R_IDLE /\ v_sa s3 = None /\ v_addr s3 = None /\ a_state s3 = D_IDLE /\ subs s3 = [CB_LISTEN] /\
  o1 = [SProceedFn 2 4096 1 8 3 65535 249 65535 0; SNotify].
Proof. vm_compute. repeat split; reflexivity. Qed.

(* ---------------------------------------------------------------- C19, second mechanism: the node is itself querying *)
(* 6: the low byte of the error goes to index length - 6, the lowest one written from the end; from there on no
   subscript of _send_dm15 can raise, and the 'operation failed' DM15 is sent *)
Lemma send_error_sends s length direct d0 x er :
  6 <= length ->
  exists d, send_dm15 s length direct 5 R_SEND_ERROR (Some d0) (Some x) (Some er) (Some 7) = (s, [SSend 216 (Z.land x 255) 6 d], None).
Proof.
  intros Hl. unfold send_dm15, opt. rewrite py_put_in by (rewrite zlen_repeat; lia).
  change (R_SEND_ERROR =? R_WAIT_FOR_KEY) with false. change (R_SEND_ERROR =? R_SEND_PROCEED) with false.
  change (R_SEND_ERROR =? R_SEND_OPCOMPLETE) with false. change (R_SEND_ERROR =? R_SEND_ERROR) with true. cbv iota.
  do 6 (rewrite py_put_in by (rewrite ?zlen_set_nth, zlen_repeat; lia); cbv beta iota).
  eexists. reflexivity.
Qed.

Lemma set_busy_twice s b : set_busy (set_busy s b) false = set_busy s false.
Proof. destruct s; reflexivity. Qed.

(* while the facade is WAIT_QUERY (the node's own read()/write() runs) ANY DM14 of at least 2 bytes — from anybody — is
   answered with exactly one 'operation failed / busy' DM15 to its sender and changes nothing; nothing reaches the application *)
Theorem querying_node_answers_busy c s x data :
  a_state s = D_WAIT_QUERY -> v_busy s = false -> 6 <= v_length s -> (2 <= length data)%nat ->
  exists d, listen_for_dm14 c s PGN_DM14 x data = (s, [SSend 216 (Z.land x 255) 6 d], None).
Proof.
  intros Ha Hb Hl Hd. destruct data as [|d0 [|d1 rest]]; cbn [length] in Hd; try lia.
  destruct (send_error_sends (set_busy s true) (v_length s) (Z.shiftr d1 4) d0 x (if v_error s =? 0 then 2 else v_error s) Hl) as (d & E).
  exists d. unfold listen_for_dm14. rewrite Ha. cbn [negb Z.eqb Pos.eqb PGN_DM14 D_WAIT_QUERY D_IDLE D_REQUEST_STARTED].
  unfold parse_dm14. cbn [negb Z.eqb Pos.eqb PGN_DM14 v_busy set_busy upd]. rewrite !orb_true_r.
  rewrite py_get_0, py_get_1. cbn [opt v_length v_error set_busy upd]. rewrite E. cbn [bind ok app]. rewrite !set_busy_twice, (set_busy_same s Hb). reflexivity.
Qed.
