(* WireProofs.v — C03 (J1939-21): the generated frame builders equal the independent SAE encoders; the
   generated field extractions applied to SAE-encoded frames return the encoded fields. *)
From J1939 Require Import Base CodecGlue Model21 Sae21.
From J1939.gen Require Import Codec Tp21Gen CaGen.
From J1939P Require Import CodecProofs Flat Tp21Seg Tp21Resp Tp21Orig.

Lemma id_of_spec prio pf da sa :
  0 <= prio < 8 -> 0 <= pf < 256 -> 0 <= da < 256 -> 0 <= sa < 256 ->
  mid_can_id_of prio (pgn_value_of 0 pf da) sa = sae_id prio (pf * 256 + da) sa.
Proof.
  intros Hp Hf Hd Hs. rewrite T15_3_pgn_value, mid_can_id_of_eq, !Z.mod_small by lia. apply can_id_arith; lia.
Qed.
(* PDU format 236 = 0xEC: TP.CM *)
Lemma cm_id prio da sa : 0 <= prio < 8 -> 0 <= da < 256 -> 0 <= sa < 256 ->
  mid_can_id_of prio (pgn_value_of 0 236 da) sa = sae_id prio (sae_tp_cm_pgn da) sa.
Proof. intros. apply id_of_spec; lia. Qed.

(* T03.1: builders = spec encoders (identifier and data); the data bytes by land_255, byte1, byte2 *)
Theorem rts_is_spec sa da prio pgn size n limit :
  0 <= prio < 8 -> 0 <= da < 256 -> 0 <= sa < 256 ->
  tp21_rts sa da prio pgn size n limit =
  {| f_id := sae_id prio (sae_tp_cm_pgn da) sa; f_ext := true; f_fd := false; f_data := enc_cm (RTS size n limit pgn) |}.
Proof.
  intros. unfold tp21_rts. rewrite cm_id by lia. cbn [enc_cm le2 le3 app].
  rewrite !byte2, !byte1, !land_255. reflexivity.
Qed.
Theorem cts_is_spec sa da n next pgn :
  0 <= da < 256 -> 0 <= sa < 256 ->
  tp21_cts sa da n next pgn =
  {| f_id := sae_id 7 (sae_tp_cm_pgn da) sa; f_ext := true; f_fd := false; f_data := enc_cm (CTS n next pgn) |}.
Proof.
  intros. unfold tp21_cts. rewrite cm_id by lia. cbn [enc_cm le3 app].
  rewrite byte2, byte1, land_255. reflexivity.
Qed.
Theorem eom_ack_is_spec sa da size n pgn :
  0 <= da < 256 -> 0 <= sa < 256 ->
  tp21_eom_ack sa da size n pgn =
  {| f_id := sae_id 7 (sae_tp_cm_pgn da) sa; f_ext := true; f_fd := false; f_data := enc_cm (EOMA size n pgn) |}.
Proof.
  intros. unfold tp21_eom_ack. rewrite cm_id by lia. cbn [enc_cm le2 le3 app].
  rewrite !byte2, !byte1, !land_255. reflexivity.
Qed.
Theorem bam_is_spec sa prio pgn size n :
  0 <= prio < 8 -> 0 <= sa < 256 ->
  tp21_bam sa prio pgn size n =
  {| f_id := sae_id prio (sae_tp_cm_pgn 255) sa; f_ext := true; f_fd := false; f_data := enc_cm (BAM size n pgn) |}.
Proof.
  intros. unfold tp21_bam. rewrite cm_id by lia. cbn [enc_cm le2 le3 app].
  rewrite !byte2, !byte1, !land_255. reflexivity.
Qed.
Theorem abort_is_spec sa da reason pgn :
  0 <= da < 256 -> 0 <= sa < 256 ->
  tp21_abort sa da reason pgn =
  {| f_id := sae_id 7 (sae_tp_cm_pgn da) sa; f_ext := true; f_fd := false; f_data := enc_cm (ABORT reason pgn) |}.
Proof.
  intros. unfold tp21_abort. rewrite cm_id by lia. cbn [enc_cm le3 app].
  rewrite byte2, byte1, land_255. reflexivity.
Qed.
Theorem dt_is_spec sa da p (k : nat) :
  0 <= da < 256 -> 0 <= sa < 256 ->
  tp21_dt sa da (dt_payload p (Z.of_nat k)) =
  {| f_id := sae_id 7 (sae_tp_dt_pgn da) sa; f_ext := true; f_fd := false; f_data := enc_dt (Z.of_nat k + 1) (seg7 p k) |}.
Proof.
  intros. unfold tp21_dt. rewrite id_of_spec by lia. rewrite dt_payload_spec. reflexivity.
Qed.

(* T03.2: the stack's field extraction reads back what the spec encoder wrote (each side tied to the spec separately) *)
Theorem extraction_of_spec_frames m :
  cm_wf m ->
  let d := enc_cm m in
  length d = 8%nat /\
  match m with
  | RTS s n l p => tp21_cm_control d = tp21_cm_RTS /\ tp21_cm_pgn d = p /\ tp21_rts_message_size d = s /\
                   tp21_rts_num_packages d = n /\ tp21_rts_max_num_packages d = l
  | CTS n x p => tp21_cm_control d = tp21_cm_CTS /\ tp21_cm_pgn d = p /\ tp21_cts_num_packages d = n /\
                 tp21_cts_next_package_number d = x - 1
  | EOMA s n p => tp21_cm_control d = tp21_cm_EOM_ACK /\ tp21_cm_pgn d = p
  | BAM s n p => tp21_cm_control d = tp21_cm_BAM /\ tp21_cm_pgn d = p /\ tp21_bam_message_size d = s /\
                 tp21_bam_num_packages d = n
  | ABORT r p => tp21_cm_control d = tp21_cm_ABORT /\ tp21_cm_pgn d = p
  end.
Proof.
  destruct m; cbn [cm_wf enc_cm le2 le3 app]; intros H; cbv zeta; (split; [reflexivity|]);
    unfold tp21_cm_control, tp21_cm_pgn, tp21_rts_message_size, tp21_rts_num_packages, tp21_rts_max_num_packages,
      tp21_cts_num_packages, tp21_cts_next_package_number, tp21_bam_message_size, tp21_bam_num_packages, byte_at;
    cbn [nth]; repeat split; try reflexivity; try (apply le24; lia); try (apply le16; lia).
Qed.

(* the spec decoder inverts the spec encoder, so by rts_is_spec etc. every TP.CM frame the stack emits
   decodes, under the independent layout, to the fields it was built from *)
Theorem stack_frames_decode m : cm_wf m -> dec_cm (enc_cm m) = Some m.
Proof. exact (dec_enc_cm m). Qed.

(* T03.3 *)
Theorem identifier_layout prio pf da sa :
  0 <= prio < 8 -> 0 <= pf < 256 -> 0 <= da < 256 -> 0 <= sa < 256 ->
  mid_can_id_of prio (pgn_value_of 0 pf da) sa = prio * 67108864 + pf * 65536 + da * 256 + sa.
Proof. intros. rewrite id_of_spec by lia. unfold sae_id. lia. Qed.
