(* Flat.v — [flat]: a resumption run with nobody interfering between an emission and its continuation
   (every callback and every bus write hands the node back as it got it); what [_notify_subscribers]
   emits under that reading; which handler of [notify] a PDU1 frame reaches. *)
From J1939 Require Import Base CodecGlue Model21.
From J1939.gen Require Import Codec Tp21Gen CaGen.
From J1939P Require Import CodecProofs.

Inductive res := RDone (r : Z) | RRaise (e : Z).

Fixpoint flat (a : act node) : node * list out * res :=
  match a with
  | Done s r => (s, [], RDone r)
  | Raise s e => (s, [], RRaise e)
  | Emit s o k => let '(s', os, r) := flat (k s) in (s', o :: os, r)
  end.

Definition fnode (a : act node) : node := fst (fst (flat a)).
Definition fouts (a : act node) : list out := snd (fst (flat a)).
Definition fres (a : act node) : res := snd (flat a).

Definition deliveries_from (n : node) (i : nat) (prio pgn sa dest : Z) (data : list Z) : list out :=
  map (fun s => OCb (sb_cid s) prio pgn sa data) (filter (fun s => sub_matches n s dest) (skipn i (n_subs n))).
Definition deliveries (n : node) := deliveries_from n 0.

Lemma skipn_nth_error {A} (l : list A) i x : nth_error l i = Some x -> skipn i l = x :: skipn (S i) l.
Proof.
  revert i. induction l as [|y r IH]; intros [|i] H; cbn in *; try discriminate.
  - inversion H. reflexivity.
  - apply IH. exact H.
Qed.

Lemma flat_notify_subs fuel : forall i prio pgn sa dest data n k,
  (length (n_subs n) - i < fuel)%nat ->
  flat (notify_subs fuel i prio pgn sa dest data n k) =
  let '(s, os, r) := flat (k n) in (s, deliveries_from n i prio pgn sa dest data ++ os, r).
Proof.
  induction fuel as [|f IH]; intros i prio pgn sa dest data n k Hf; [lia|].
  cbn [notify_subs]. unfold deliveries_from.
  destruct (nth_error (n_subs n) i) as [s|] eqn:E.
  - rewrite (skipn_nth_error _ _ _ E). cbn [filter].
    assert (Hlt : (i < length (n_subs n))%nat) by (apply nth_error_Some; congruence).
    destruct (sub_matches n s dest) eqn:M.
    + cbn [flat map]. rewrite IH by lia. unfold deliveries_from.
      destruct (flat (k n)) as [[s' os] r]. reflexivity.
    + rewrite IH by lia. reflexivity.
  - rewrite skipn_all2 by (apply nth_error_None; exact E). cbn [filter map app].
    destruct (flat (k n)) as [[s' os] r]. reflexivity.
Qed.

Lemma flat_notify_subscribers prio pgn sa dest data n k :
  flat (notify_subscribers prio pgn sa dest data n k) =
  let '(s, os, r) := flat (k n) in (s, deliveries n prio pgn sa dest data ++ os, r).
Proof. unfold notify_subscribers, deliveries. apply flat_notify_subs. lia. Qed.

Lemma deliveries_env n n' prio pgn sa dest data :
  n_subs n' = n_subs n -> n_cas n' = n_cas n ->
  deliveries n' prio pgn sa dest data = deliveries n prio pgn sa dest data.
Proof.
  intros Hs Hc. unfold deliveries, deliveries_from. rewrite Hs. f_equal.
  apply filter_ext. intros s. unfold sub_matches. rewrite Hc. reflexivity.
Qed.

(* the guard on PDU1 frames in J1939_21.notify: the destination is global, or one a subscriber
   registered for (_is_message_acceptable), or one a CA in state NORMAL holds (message_acceptable) *)
Definition accepts (n : node) (dest : Z) : bool :=
  (dest =? addr_GLOBAL) || ecu_acceptable n dest || existsb (fun c => ca_acceptable c dest) (n_cas n).

Lemma accepts_env n n' dest : n_subs n' = n_subs n -> n_cas n' = n_cas n -> accepts n' dest = accepts n dest.
Proof. intros Hs Hc. unfold accepts, ecu_acceptable. rewrite Hs, Hc. reflexivity. Qed.

Lemma pdu1_id_fields prio pf dest sa :
  0 <= prio < 8 -> 0 <= pf < 240 -> 0 <= dest < 256 -> 0 <= sa < 256 ->
  mid_parse (mid_can_id_of prio (pgn_value_of 0 pf dest) sa) = (prio, pf * 256 + dest, sa) /\
  pgn_from_mid (pf * 256 + dest) = (0, pf, dest) /\ pgn_is_pdu2 pf = false.
Proof.
  intros Hp Hf Hd Hs.
  assert (Hv : pgn_value_of 0 pf dest = pf * 256 + dest).
  { rewrite T15_3_pgn_value. lia. }
  rewrite Hv. split; [apply T15_2_in_range; lia|]. split.
  - rewrite T15_3_pgn_fields. f_equal; [f_equal|]; lia.
  - unfold pgn_is_pdu2. destruct (Z.geb pf 240 && Z.leb pf 255) eqn:E; [lia|reflexivity].
Qed.

Lemma notify_pdu1 n now prio pf dest sa data :
  0 <= prio < 8 -> 0 <= pf < 240 -> 0 <= dest < 256 -> 0 <= sa < 256 ->
  notify n now (mid_can_id_of prio (pgn_value_of 0 pf dest) sa) data =
  if negb (accepts n dest) then Done n 0
  else if pf * 256 =? pgn_ADDRESSCLAIM then claim_fanout 0 (length (n_cas n)) sa data n (fun n' => Done n' 0)
  else if pf * 256 =? pgn_REQUEST then request_fanout 0 (length (n_cas n)) sa dest data n (fun n' => Done n' 0)
  else if pf * 256 =? pgn_TP_CM then process_tp_cm prio sa dest data now n
  else if pf * 256 =? pgn_DATATRANSFER then process_tp_dt prio sa dest data now n
  else notify_subscribers prio (pf * 256) sa dest data n (fun n' => Done n' 0).
Proof.
  intros Hp Hf Hd Hs. unfold notify.
  destruct (pdu1_id_fields prio pf dest sa Hp Hf Hd Hs) as (E1 & E2 & E3).
  rewrite E1, E2, E3.
  assert (Hv : Z.land (pgn_value 0 pf dest) 130816 = pf * 256).
  { rewrite pgn_value_arith by lia.
    change 130816 with (Z.ones 9 * 2 ^ 8). rewrite land_high_mask by lia. pow2_norm. lia. }
  rewrite Hv. unfold accepts.
  destruct (dest =? addr_GLOBAL) eqn:G; cbn [negb andb orb].
  - reflexivity.
  - destruct (ecu_acceptable n dest); cbn [negb andb orb]; [reflexivity|].
    destruct (existsb (fun c => ca_acceptable c dest) (n_cas n)); reflexivity.
Qed.

Corollary notify_tp_cm n now prio dest sa data :
  0 <= prio < 8 -> 0 <= dest < 256 -> 0 <= sa < 256 -> accepts n dest = true ->
  notify n now (mid_can_id_of prio (pgn_value_of 0 236 dest) sa) data = process_tp_cm prio sa dest data now n.
Proof. intros. rewrite notify_pdu1 by lia. rewrite H2. reflexivity. Qed.

Corollary notify_tp_dt n now prio dest sa data :
  0 <= prio < 8 -> 0 <= dest < 256 -> 0 <= sa < 256 -> accepts n dest = true ->
  notify n now (mid_can_id_of prio (pgn_value_of 0 235 dest) sa) data = process_tp_dt prio sa dest data now n.
Proof. intros. rewrite notify_pdu1 by lia. rewrite H2. reflexivity. Qed.

Corollary notify_req n now dest sa data :
  0 <= dest < 256 -> 0 <= sa < 256 -> accepts n dest = true ->
  notify n now (mid_can_id_of 6 (pgn_value_of 0 234 dest) sa) data =
  request_fanout 0 (length (n_cas n)) sa dest data n (fun n' => Done n' 0).
Proof. intros Hd Hs Hacc. rewrite notify_pdu1 by lia. rewrite Hacc. reflexivity. Qed.

(* T05.1 (J1939-21): a frame for a destination the stack does not accept changes nothing and emits nothing *)
Corollary notify_foreign n now prio pf dest sa data :
  0 <= prio < 8 -> 0 <= pf < 240 -> 0 <= dest < 256 -> 0 <= sa < 256 -> accepts n dest = false ->
  notify n now (mid_can_id_of prio (pgn_value_of 0 pf dest) sa) data = Done n 0.
Proof. intros. rewrite notify_pdu1 by lia. rewrite H3. reflexivity. Qed.
