(* Net22Seq.v — C10/C02 end to end over a history: any number of FD connection-mode transfers run one after the other
   between two FD model nodes ALL deliver; after every one the nodes meet the premises of the FD closed-loop theorem again
   (in particular the session number is back in the pool). *)
From J1939 Require Import Base CodecGlue Model21 Model22.
From J1939.gen Require Import Codec Tp21Gen CaGen Tp22Gen.
From J1939P Require Import CodecProofs Flat MpgProofs Net21 Net21Proofs Net21Seq Net22 Net22Proofs.
Local Arguments Z.add : simpl never.
Local Arguments Z.mul : simpl never.

Definition plog22 (L : logs) (s : net22) : net22 :=
  {| fa := fa s; fb := fb s; pa := pa s; pb := pb s; fclk := fclk s;
     eva2 := l_eva L ++ eva2 s; evb2 := l_evb L ++ evb2 s; wab2 := l_wab L ++ wab2 s; wba2 := l_wba L ++ wba2 s |}.

Lemma step22_plog L s : step22 (plog22 L s) = plog22 L (step22 s).
Proof.
  unfold step22, plog22. cbn [fa fb pa pb fclk eva2 evb2 wab2 wba2].
  destruct (pb s) as [|f r].
  - destruct (pa s) as [|f r].
    + destruct (flat22 (job_iter22 (fa s) (fclk s))) as [[a' oa] ra]. destruct (flat22 (job_iter22 (fb s) (fclk s))) as [[b' ob] rb].
      cbn [fa fb pa pb fclk eva2 evb2 wab2 wba2]. rewrite <- !app_assoc. reflexivity.
    + destruct (handle22 (fa s) (fclk s) f) as [n' os]. cbn [fa fb pa pb fclk eva2 evb2 wab2 wba2]. rewrite <- !app_assoc. reflexivity.
  - destruct (handle22 (fb s) (fclk s) f) as [n' os]. cbn [fa fb pa pb fclk eva2 evb2 wab2 wba2]. rewrite <- !app_assoc. reflexivity.
Qed.
Lemma steps22_plog L : forall j s, steps22 j (plog22 L s) = plog22 L (steps22 j s).
Proof. induction j as [|j IH]; intros s; cbn [steps22]; [reflexivity|]. rewrite step22_plog. apply IH. Qed.
Lemma net22_send_plog L s dp pf ps prio sa d : net22_send (plog22 L s) dp pf ps prio sa d = plog22 L (net22_send s dp pf ps prio sa d).
Proof.
  unfold net22_send, plog22. cbn [fa fb pa pb fclk eva2 evb2 wab2 wba2].
  destruct (flat22 (send_pgn22 (fa s) (fclk s) dp pf ps prio sa d 0 ff_FEFF)) as [[a' os] r].
  cbn [fa fb pa pb fclk eva2 evb2 wab2 wba2]. rewrite <- !app_assoc. reflexivity.
Qed.
Lemma rest22_is_plog s : pa s = [] -> pb s = [] ->
  s = plog22 {| l_eva := eva2 s; l_evb := evb2 s; l_wab := wab2 s; l_wba := wba2 s |} (net22_0 (fa s) (fb s) (fclk s)).
Proof. intros Ha Hb. destruct s. cbn in *. subst. unfold plog22, net22_0. cbn. rewrite !app_nil_r. reflexivity. Qed.

Definition msg22_ok (m : msg) : Prop := 0 <= m_dp m < 2 /\ 0 <= m_pf m < 240 /\ 0 <= m_prio m < 8 /\ 60 < len (m_data m) < 16777216.
Fixpoint seq_reach22 (sa dest : Z) (s : net22) (ms : list msg) (s' : net22) : Prop :=
  match ms with
  | [] => s' = s
  | m :: r => exists j, seq_reach22 sa dest (steps22 j (net22_send s (m_dp m) (m_pf m) dest (m_prio m) sa (m_data m))) r s'
  end.
Definition wire22_of (sa dest maxp : Z) (m : msg) : list frame :=
  let pv := m_dp m * 65536 + m_pf m * 256 in
  let p := m_data m in
  let ns := ((length p + 59) / 60)%nat in
  tp22_rts (m_prio m) sa dest 0 pv (len p) (Z.of_nat ns) (Z.min maxp (Z.of_nat ns))
  :: map (fun k => match dt_frame sa dest 0 (Z.of_nat k + 1) (row p k) with
                   | Some (fr, _) => fr | None => tp22_eom_status sa dest 0 (len p) (Z.of_nat ns) pv end) (seq 0 ns)
  ++ [tp22_eom_status sa dest 0 (len p) (Z.of_nat ns) pv].

Definition premA22 (sa : Z) (a : node22) : Prop :=
  f_snd a = [] /\ f_rcv a = [] /\ f_mpg a = [] /\ n_timers (base a) = [] /\ n_cmdt_iv (base a) = None /\
  accepts (base a) sa = true /\ 1 <= n_maxp (base a) < 256 /\ f_rts a = repeat true tp22_pool_rts.
Definition premB22 (dest : Z) (b : node22) : Prop :=
  f_snd b = [] /\ f_rcv b = [] /\ f_mpg b = [] /\ n_timers (base b) = [] /\ accepts (base b) dest = true /\ 1 <= n_maxp (base b).

(* T10.19: after the FD closed loop the pair is again as it was: the final state meets the premises of the theorem itself *)
Theorem closed_loop22_restores sa dest m t0 A0 B0 :
  0 <= sa < 255 -> 0 <= dest < 255 -> msg22_ok m -> 0 < t0 -> premA22 sa A0 -> premB22 dest B0 ->
  exists j, let s := steps22 j (net22_send (net22_0 A0 B0 t0) (m_dp m) (m_pf m) dest (m_prio m) sa (m_data m)) in
    pa s = [] /\ pb s = [] /\ t0 <= fclk s /\
    evb2 s = deliveries (base B0) 7 (m_dp m * 65536 + m_pf m * 256) sa dest (m_data m) /\
    wab2 s = wire22_of sa dest (n_maxp (base A0)) m /\
    premA22 sa (fa s) /\ premB22 dest (fb s) /\
    n_maxp (base (fa s)) = n_maxp (base A0) /\ n_subs (base (fb s)) = n_subs (base B0) /\ n_cas (base (fb s)) = n_cas (base B0).
Proof.
  intros Hsa Hdest (Hdp & Hpf & Hpr & Hlen) Ht0 HA HB.
  destruct (closed_loop22 (m_prio m) sa dest (m_dp m) (m_pf m) (m_data m) t0 A0 B0 Hpr Hsa Hdest Hpf Hdp Hlen Ht0 HA HB)
    as (j & Q1 & Q2 & Q3 & Q4 & Q5 & Q6 & Q7 & Q8 & Q9 & Qc & Ra & Eb). exists j.
  destruct Ra as (Am & At & Ai & Asub & Acas & Amx). destruct Eb as (Bs & Bm & Bt & Bsub & Bcas & Bmx & _).
  destruct HA as (_ & _ & _ & _ & _ & Ha & HmA & _). destruct HB as (_ & _ & _ & _ & Hb & HmB).
  cbn zeta. unfold premA22, premB22. rewrite (accepts_env _ _ sa Asub Acas), (accepts_env _ _ dest Bsub Bcas), Amx, Bmx.
  repeat split; assumption || lia.
Qed.

Theorem sequence22_delivers sa dest : 0 <= sa < 255 -> 0 <= dest < 255 ->
  forall ms s, Forall msg22_ok ms -> pa s = [] -> pb s = [] -> 0 < fclk s -> premA22 sa (fa s) -> premB22 dest (fb s) ->
  exists s', seq_reach22 sa dest s ms s' /\
    pa s' = [] /\ pb s' = [] /\ premA22 sa (fa s') /\ premB22 dest (fb s') /\
    evb2 s' = evb2 s ++ concat (map (fun m => deliveries (base (fb s)) 7 (m_dp m * 65536 + m_pf m * 256) sa dest (m_data m)) ms) /\
    wab2 s' = wab2 s ++ concat (map (wire22_of sa dest (n_maxp (base (fa s)))) ms).
Proof.
  intros Hsa Hdest. induction ms as [|m r IH]; intros s Hok Hpa Hpb Hc HA HB.
  - exists s. cbn [seq_reach22 map concat]. rewrite !app_nil_r.
    split; [reflexivity|]. split; [exact Hpa|]. split; [exact Hpb|]. split; [exact HA|]. split; [exact HB|]. split; reflexivity.
  - destruct (closed_loop22_restores sa dest m (fclk s) (fa s) (fb s) Hsa Hdest (Forall_inv Hok) Hc HA HB)
      as (j & Q1 & Q2 & Qc & Qe & Qw & HA' & HB' & Qm & Qs & Qcas).
    (* s is the fresh network of its nodes under the logs L it has so far, and so is everything that follows from it *)
    set (L := {| l_eva := eva2 s; l_evb := evb2 s; l_wab := wab2 s; l_wba := wba2 s |}).
    set (s1 := steps22 j (net22_send (net22_0 (fa s) (fb s) (fclk s)) (m_dp m) (m_pf m) dest (m_prio m) sa (m_data m))) in *.
    destruct (IH (plog22 L s1) (Forall_inv_tail Hok) Q1 Q2 (Z.lt_le_trans _ _ _ Hc Qc) HA' HB')
      as (s' & Hreach & R1 & R2 & RA & RB & Re & Rw).
    exists s'. split.
    { exists j. rewrite (rest22_is_plog s Hpa Hpb), net22_send_plog, steps22_plog. exact Hreach. }
    split; [exact R1|]. split; [exact R2|]. split; [exact RA|]. split; [exact RB|].
    cbn [plog22 evb2 wab2 fa fb L l_evb l_wab] in Re, Rw. cbn [map concat]. split.
    + rewrite Re, Qe, <- app_assoc. f_equal. f_equal. f_equal. apply map_ext. intros m'. apply deliveries_same; assumption.
    + rewrite Rw, Qw, Qm, <- app_assoc. reflexivity.
Qed.

Example sequence22_instance :
  let A := sub22 (init_node22 3 None None) 1 (FAddr 128) in
  let B := sub22 (init_node22 2 None None) 7 (FAddr 144) in
  let p1 := map Z.of_nat (seq 1 150) in let p2 := map Z.of_nat (seq 5 61) in
  let s1 := steps22 11 (net22_send (net22_0 A B 1000) 0 239 144 6 128 p1) in
  let s2 := steps22 9 (net22_send s1 1 18 144 3 128 p2) in
  quiet22 s2 = true /\ evb2 s2 = [OCb 7 7 61184 128 p1; OCb 7 7 70144 128 p2] /\ length (wab2 s2) = 9%nat.
Proof. vm_compute. repeat split. Qed.
