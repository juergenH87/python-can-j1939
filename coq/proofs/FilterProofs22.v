(* FilterProofs22.v — C05 for EVERY identifier (any priority, data page, extended data page, even values outside 29 bits)
   on BOTH data link layers, and the J1939-22 counterparts of the listener / bystander theorems of FilterProofs.v. *)
From J1939 Require Import Base CodecGlue Model21 Model22.
From J1939.gen Require Import Codec Tp21Gen CaGen Tp22Gen.
From J1939P Require Import CodecProofs Flat FilterProofs MpgProofs PoolProofs.

Definition id_pf (id : Z) : Z := (id / 65536) mod 256.
Definition id_ps (id : Z) : Z := (id / 256) mod 256.

Lemma mod_mul_mod x b c : 0 < b -> 0 < c -> (x mod (b * c)) mod b = x mod b.
Proof. intros Hb Hc. rewrite Z.rem_mul_r, Z.mul_comm, Z.mod_add, Z.mod_mod by lia. reflexivity. Qed.
Lemma mod_mul_div x b c : 0 < b -> 0 < c -> (x mod (b * c)) / b = (x / b) mod c.
Proof.
  intros Hb Hc. rewrite Z.rem_mul_r, (Z.mul_comm b), Z.div_add, Z.div_small, Z.add_0_l by (try lia; apply Z.mod_pos_bound; lia).
  reflexivity.
Qed.

(* the 18-bit PGN field starts at bit 8 of the identifier, so its two low bytes are bytes 1 and 2 of the identifier *)
Lemma pgn_field_low x : (x mod 262144) mod 256 = x mod 256.
Proof. change 262144 with (256 * 1024). apply mod_mul_mod; reflexivity. Qed.
Lemma pgn_field_high x : ((x mod 262144) / 256) mod 256 = (x / 256) mod 256.
Proof. change 262144 with (256 * (256 * 4)). rewrite mod_mul_div, mod_mul_mod by reflexivity. reflexivity. Qed.

Lemma id_fields id :
  mid_parse id = ((id / 67108864) mod 8, (id / 256) mod 262144, id mod 256) /\
  pgn_from_mid ((id / 256) mod 262144) = (((id / 256) mod 262144 / 65536) mod 2, id_pf id, id_ps id).
Proof.
  split; [apply mid_parse_arith|].
  rewrite T15_3_pgn_fields, pgn_field_high, pgn_field_low, Z.div_div by lia. reflexivity.
Qed.

Lemma id_pf_pdu2 id : pgn_is_pdu2 (id_pf id) = (240 <=? id_pf id).
Proof.
  destruct (T15_3_pdu_classification (id_pf id) (Z.mod_pos_bound _ 256 eq_refl)) as (_ & H & _).
  apply eq_true_iff_eq. rewrite H. symmetry. apply Z.leb_le.
Qed.

(* the destination test of both notify functions *)
Lemma filter_is_accepts n dest :
  negb (dest =? addr_GLOBAL) && negb (ecu_acceptable n dest) && negb (existsb (fun c => ca_acceptable c dest) (n_cas n)) =
  negb (accepts n dest).
Proof. unfold accepts. rewrite !negb_orb. reflexivity. Qed.

(* T05.1 at full strength, J1939-21: whatever the identifier — its PDU format byte below 240 and its destination byte
   not accepted by the stack is all that matters *)
Theorem notify_foreign_any_id n now id data :
  id_pf id < 240 -> accepts n (id_ps id) = false -> notify n now id data = Done n 0.
Proof.
  intros Hpf Hacc. unfold notify. destruct (id_fields id) as [E1 E2]. rewrite E1, E2.
  rewrite id_pf_pdu2, (proj2 (Z.leb_gt _ _) Hpf), filter_is_accepts, Hacc. reflexivity.
Qed.

Theorem notify22_foreign_any_id m now id data :
  id_pf id < 240 -> accepts (base m) (id_ps id) = false -> notify22 m now id data = Done m 0.
Proof.
  intros Hpf Hacc. unfold notify22. destruct (id_fields id) as [E1 E2]. rewrite E1, E2.
  rewrite id_pf_pdu2, (proj2 (Z.leb_gt _ _) Hpf). cbn [negb]. rewrite andb_true_r, filter_is_accepts, Hacc. reflexivity.
Qed.

(* the built identifiers of FilterProofs.v are instances, with ANY data page (priority and source address are masked by the
   builder, so they need no bound) *)
Lemma built_id_fields prio dp pf dest sa :
  0 <= dp < 2 -> 0 <= pf < 256 -> 0 <= dest < 256 ->
  id_pf (mid_can_id_of prio (pgn_value_of dp pf dest) sa) = pf /\
  id_ps (mid_can_id_of prio (pgn_value_of dp pf dest) sa) = dest.
Proof.
  intros Hd Hf Hdst.
  assert (Hv : pgn_value_of dp pf dest = dp * 65536 + pf * 256 + dest).
  { rewrite T15_3_pgn_value. lia. }
  rewrite mid_can_id_of_eq, can_id_arith, Hv by (apply Z.mod_pos_bound; reflexivity).
  unfold id_pf, id_ps. split; lia.
Qed.

Corollary notify22_foreign m now prio dp pf dest sa data :
  0 <= prio < 8 -> 0 <= dp < 2 -> 0 <= pf < 240 -> 0 <= dest < 256 -> 0 <= sa < 256 ->
  accepts (base m) dest = false ->
  notify22 m now (mid_can_id_of prio (pgn_value_of dp pf dest) sa) data = Done m 0.
Proof.
  intros Hp Hd Hf Hdst Hs Hacc.
  destruct (built_id_fields prio dp pf dest sa) as (E1 & E2); try lia.
  apply notify22_foreign_any_id; [rewrite E1; lia|rewrite E2; exact Hacc].
Qed.

Corollary notify_foreign_dp n now prio dp pf dest sa data :
  0 <= prio < 8 -> 0 <= dp < 2 -> 0 <= pf < 240 -> 0 <= dest < 256 -> 0 <= sa < 256 ->
  accepts n dest = false ->
  notify n now (mid_can_id_of prio (pgn_value_of dp pf dest) sa) data = Done n 0.
Proof.
  intros Hp Hd Hf Hdst Hs Hacc.
  destruct (built_id_fields prio dp pf dest sa) as (E1 & E2); try lia.
  apply notify_foreign_any_id; [rewrite E1; lia|rewrite E2; exact Hacc].
Qed.

(* ---------------------------------------------------------------- the FD listener *)
Theorem listener22_filter m now id ext remote err data :
  listener22 m now id ext remote err data =
  if ext && negb remote && negb err then catch (notify22 m now id data) else Done m 0.
Proof. unfold listener22. destruct ext, remote, err; reflexivity. Qed.

Lemma catch22_never_raises (a : act node22) : exists r, fres22 (catch a) = RDone r.
Proof.
  unfold fres22. induction a as [s r|s e|s o k IH]; cbn [catch flat22].
  - exists r. reflexivity.
  - exists 0. reflexivity.
  - destruct (IH s) as [r Hr]. destruct (flat22 (catch (k s))) as [[s' os] r']. cbn in *. exists r. exact Hr.
Qed.

Theorem listener22_contains_exceptions m now id ext remote err data :
  exists r, fres22 (listener22 m now id ext remote err data) = RDone r.
Proof.
  rewrite listener22_filter. destruct (ext && negb remote && negb err).
  - apply catch22_never_raises.
  - exists 0. reflexivity.
Qed.

Theorem listener22_drops_non_data_frames m now id ext remote err data :
  (ext = false \/ remote = true \/ err = true) ->
  flat22 (listener22 m now id ext remote err data) = (m, [], RDone 0).
Proof. intros H. unfold listener22. destruct ext, remote, err; try reflexivity. destruct H as [H|[H|H]]; discriminate. Qed.

(* ---------------------------------------------------------------- bystanders, any identifiers, both layers *)
Record rawf := { r_id : Z; r_data : list Z; r_time : Z }.
Definition foreign_to (n : node) (f : rawf) : Prop := id_pf (r_id f) < 240 /\ accepts n (id_ps (r_id f)) = false.

Definition feed_raw (st : node * list out) (f : rawf) : node * list out :=
  let '(n', os, _) := flat (listener (fst st) (r_time f) (r_id f) true false false (r_data f)) in (n', snd st ++ os).
Definition feed_raw22 (st : node22 * list out) (f : rawf) : node22 * list out :=
  let '(m', os, _) := flat22 (listener22 (fst st) (r_time f) (r_id f) true false false (r_data f)) in (m', snd st ++ os).

Theorem bystander_untouched_any_id n frames :
  Forall (foreign_to n) frames -> fold_left feed_raw frames (n, []) = (n, []).
Proof.
  intros H. induction frames as [|f r IH]; [reflexivity|].
  inversion H as [|? ? [H1 H2] H3]; subst. cbn [fold_left]. unfold feed_raw at 2. cbn [fst snd].
  unfold listener. cbn [orb negb]. rewrite notify_foreign_any_id by assumption. cbn [catch flat app]. apply IH; assumption.
Qed.

Theorem bystander22_untouched_any_id m frames :
  Forall (foreign_to (base m)) frames -> fold_left feed_raw22 frames (m, []) = (m, []).
Proof.
  intros H. induction frames as [|f r IH]; [reflexivity|].
  inversion H as [|? ? [H1 H2] H3]; subst. cbn [fold_left]. unfold feed_raw22 at 2. cbn [fst snd].
  unfold listener22. cbn [orb negb]. rewrite notify22_foreign_any_id by assumption. cbn [catch flat22 app]. apply IH; assumption.
Qed.

(* ---------------------------------------------------------------- PDU2 frames on the FD layer are broadcasts *)
Theorem notify22_pdu2 m now id data :
  240 <= id_pf id ->
  let pgnf := (id / 256) mod 262144 in
  let pv := Z.land (pgn_value ((pgnf / 65536) mod 2) (id_pf id) (id_ps id)) 130816 in
  pv <> pgn_FEFF_MULTI_PG -> pv <> pgn_ADDRESSCLAIM -> pv <> pgn_REQUEST -> pv <> pgn_FD_TP_CM -> pv <> pgn_FD_TP_DT ->
  pv <> pgn_TP_CM -> pv <> pgn_DATATRANSFER ->
  notify22 m now id data =
  notify_subscribers22 ((id / 67108864) mod 8) (pgn_value ((pgnf / 65536) mod 2) (id_pf id) (id_ps id)) (id mod 256)
                       addr_GLOBAL data m (fun m' => Done m' 0).
Proof.
  intros Hpf pgnf pv H1 H2 H3 H4 H5 H6 H7. unfold notify22.
  destruct (id_fields id) as [E1 E2]. rewrite E1, E2. fold pgnf pv.
  rewrite id_pf_pdu2, (proj2 (Z.leb_le _ _) Hpf). cbn [negb]. rewrite andb_false_r.
  rewrite !(proj2 (Z.eqb_neq pv _)) by assumption. reflexivity.
Qed.

Example foreign_example :
  let m0 := with_base (init_node22 1 None None) (subscribe (init_node 1 None None) 1 (FAddr 64)) in
  accepts (base m0) 65 = false /\ accepts (base m0) 64 = true /\ id_pf 418071033 = 235 /\ id_ps 418071033 = 65.
Proof. vm_compute. repeat split; reflexivity. Qed.
