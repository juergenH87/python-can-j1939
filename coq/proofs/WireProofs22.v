(* WireProofs22.v — C03 (J1939-22): the generated FD frame builders equal the independent SAE layouts of Sae22.v; the
   generated field extractions applied to SAE-encoded frames return the encoded fields; the frames the closed loop puts
   on the wire are decoded and reassembled by the independent receiver of Sae22.v to exactly the message. *)
From J1939 Require Import Base CodecGlue Model21 Model22 Sae21 Sae22.
From J1939.gen Require Import Codec Tp21Gen CaGen Tp22Gen.
From J1939P Require Import CodecProofs Flat MpgProofs Tp21Seg Tp21Resp Tp21Orig WireProofs Net22Proofs.
Local Arguments Z.add : simpl never.
Local Arguments Z.sub : simpl never.
Local Arguments Z.mul : simpl never.

(* the PDU formats 0x4D and 0x4E are written as (pgn >> 8) & 0xFF in the source *)
Lemma fd_cm_id prio da sa : 0 <= prio < 8 -> 0 <= da < 256 -> 0 <= sa < 256 ->
  mid_can_id_of prio (pgn_value_of 0 (Z.land (Z.shiftr 19712 8) 255) da) sa = sae_id prio (sae_fd_cm_pgn da) sa.
Proof. intros. apply (id_of_spec prio 77); lia. Qed.
Lemma fd_dt_id da sa : 0 <= da < 256 -> 0 <= sa < 256 -> tp22_dt_id sa da = sae_id 7 (sae_fd_dt_pgn da) sa.
Proof. intros. apply (id_of_spec 7 78); lia. Qed.

Lemma le3_read v : r24 v ->
  Z.lor (Z.lor (Z.land (v mod 256) 255) (Z.shiftl (Z.land ((v / 256) mod 256) 255) 8))
        (Z.shiftl (Z.land ((v / 65536) mod 256) 255) 16) = v.
Proof. intros H. rewrite !land_255, !Z.mod_mod by lia. apply le24, H. Qed.

(* the general control frame; byte 1 of every FD transport frame is Base.nibbles_join: control type or format indicator
   below, session number above *)
Lemma cm22_is_layout sa da ctl s size nseg b7 b8 pgn prio :
  0 <= prio < 8 -> 0 <= da < 256 -> 0 <= sa < 256 -> 0 <= ctl < 16 -> 0 <= s < 16 ->
  tp22_cm sa da ctl s size nseg b7 b8 pgn prio =
  {| f_id := sae_id prio (sae_fd_cm_pgn da) sa; f_ext := true; f_fd := true;
     f_data := [ctl + 16 * s] ++ le3 size ++ le3 nseg ++ [b7 mod 256; b8 mod 256] ++ le3 pgn |}.
Proof.
  intros. unfold tp22_cm. rewrite fd_cm_id, nibbles_join by lia. cbn [le3 app].
  rewrite !byte2, !byte1, !land_255. reflexivity.
Qed.

(* T03.1 (FD): every builder = the independent encoder *)
Theorem fd_rts_is_spec prio sa da s pgn size nseg limit :
  0 <= prio < 8 -> 0 <= da < 256 -> 0 <= sa < 256 -> 0 <= s < 16 -> 0 <= limit < 256 ->
  tp22_rts prio sa da s pgn size nseg limit =
  {| f_id := sae_id prio (sae_fd_cm_pgn da) sa; f_ext := true; f_fd := true; f_data := enc_cm22 (RTS22 s size nseg limit pgn) |}.
Proof. intros. unfold tp22_rts. rewrite cm22_is_layout by lia. rewrite (Z.mod_small limit) by lia. reflexivity. Qed.
Theorem fd_cts_is_spec sa da s count next pgn :
  0 <= da < 256 -> 0 <= sa < 256 -> 0 <= s < 16 -> 0 <= count < 256 ->
  tp22_cts sa da s count next pgn =
  {| f_id := sae_id 7 (sae_fd_cm_pgn da) sa; f_ext := true; f_fd := true; f_data := enc_cm22 (CTS22 s next count pgn) |}.
Proof. intros. unfold tp22_cts. rewrite cm22_is_layout by lia. rewrite (Z.mod_small count) by lia. reflexivity. Qed.
Theorem fd_eom_status_is_spec sa da s size nseg pgn :
  0 <= da < 256 -> 0 <= sa < 256 -> 0 <= s < 16 ->
  tp22_eom_status sa da s size nseg pgn =
  {| f_id := sae_id 7 (sae_fd_cm_pgn da) sa; f_ext := true; f_fd := true; f_data := enc_cm22 (EOMS22 s size nseg pgn) |}.
Proof. intros. unfold tp22_eom_status. rewrite cm22_is_layout by lia. reflexivity. Qed.
Theorem fd_eom_ack_is_spec sa da s size nseg pgn :
  0 <= da < 256 -> 0 <= sa < 256 -> 0 <= s < 16 ->
  tp22_eom_ack sa da s size nseg pgn =
  {| f_id := sae_id 7 (sae_fd_cm_pgn da) sa; f_ext := true; f_fd := true; f_data := enc_cm22 (EOMA22 s size nseg pgn) |}.
Proof. intros. unfold tp22_eom_ack. rewrite cm22_is_layout by lia. reflexivity. Qed.
Theorem fd_bam_is_spec prio sa s pgn size nseg :
  0 <= prio < 8 -> 0 <= sa < 256 -> 0 <= s < 16 ->
  tp22_bam prio sa s pgn size nseg =
  {| f_id := sae_id prio (sae_fd_cm_pgn 255) sa; f_ext := true; f_fd := true; f_data := enc_cm22 (BAM22 s size nseg pgn) |}.
Proof. intros. unfold tp22_bam. rewrite cm22_is_layout by lia. reflexivity. Qed.
Theorem fd_abort_is_spec sa da s reason pgn :
  0 <= da < 256 -> 0 <= sa < 256 -> 0 <= s < 16 -> 0 <= reason < 256 ->
  tp22_abort sa da s reason pgn =
  {| f_id := sae_id 7 (sae_fd_cm_pgn da) sa; f_ext := true; f_fd := true; f_data := enc_cm22 (ABORT22 s reason pgn) |}.
Proof. intros. unfold tp22_abort. rewrite cm22_is_layout by lia. rewrite (Z.mod_small reason) by lia. reflexivity. Qed.

(* the generated length table is "the least legal CAN FD length that fits" of the independent statement (finite) *)
Lemma lut_is_fit_sweep : forallb (fun i => match fd_len i with Some v => v =? fd_fit (Z.of_nat i) | None => false end) (seq 0 65) = true.
Proof. vm_compute. reflexivity. Qed.
Lemma fd_len_is_fit (i : nat) : (i <= 64)%nat -> fd_len i = Some (fd_fit (Z.of_nat i)).
Proof.
  intros Hi. pose proof lut_is_fit_sweep as S. rewrite forallb_forall in S.
  specialize (S i ltac:(apply in_seq; lia)). destruct (fd_len i) as [v|]; [|discriminate].
  apply Z.eqb_eq in S. congruence.
Qed.
Lemma fd_fit_ge n : 0 <= n <= 64 -> n <= fd_fit n <= 64.
Proof.
  intros H. unfold fd_fit.
  repeat match goal with |- context [if ?c then _ else _] => destruct c eqn:?; [lia|] end. lia.
Qed.

(* T03.1 (FD data frames): session nibble, 24-bit 1-based segment number, the data, 0xFF up to the next legal length *)
Theorem fd_dt_is_spec sa da s k seg :
  0 <= da < 256 -> 0 <= sa < 256 -> 0 <= s < 16 -> (length seg <= 60)%nat ->
  exists seg', dt_frame sa da s k seg =
    Some ({| f_id := sae_id 7 (sae_fd_dt_pgn da) sa; f_ext := true; f_fd := true; f_data := enc_dt22 s k seg |}, seg').
Proof.
  intros Hd Hs Hn Hl. unfold dt_frame, enc_dt22, tp22_dt_header.
  rewrite fd_dt_id, nibbles_join, byte2, byte1, land_255 by lia. cbn [le3 app].
  set (body := _ :: _ :: _ :: _ :: seg).
  assert (Lb : length body = (4 + length seg)%nat) by reflexivity.
  change (tp22_TP + 4) with 64.
  destruct (Z.of_nat (length body) >=? 64) eqn:G.
  - (* a full segment: the builder cuts nothing off, the spec adds nothing *)
    assert (E : length body = 64%nat) by lia. rewrite E. change (Z.to_nat (fd_fit (Z.of_nat 64)) - 64)%nat with 0%nat.
    rewrite firstn_all2, app_nil_r by lia. eexists. reflexivity.
  - (* a short one: the builder's table is the spec's fd_fit, and its clamp at 0 never applies *)
    rewrite fd_len_is_fit by lia.
    pose proof (fd_fit_ge (Z.of_nat (length body)) ltac:(lia)) as F.
    assert ((fd_fit (Z.of_nat (length body)) <? 0) = false) as -> by lia.
    eexists. reflexivity.
Qed.

(* T03.2 (FD): the stack's field extraction reads back what the independent encoder wrote *)
Theorem fd_extraction_of_spec_frames m :
  cm22_wf m ->
  let d := enc_cm22 m in
  length d = 12%nat /\
  match m with
  | RTS22 s sz n l p => tp22_cm_control_byte d = tp22_ctl_RTS /\ tp22_cm_session_num d = s /\ tp22_cm_message_size d = sz /\
                        tp22_cm_segment_num d = n /\ byte_at d 7 = l /\ tp22_cm_pgn d = p
  | CTS22 s x c p => tp22_cm_control_byte d = tp22_ctl_CTS /\ tp22_cm_session_num d = s /\ tp22_cm_segment_num d = x /\
                     byte_at d 7 = c /\ tp22_cm_pgn d = p
  | EOMS22 s sz n p => tp22_cm_control_byte d = tp22_ctl_EOM_STATUS /\ tp22_cm_session_num d = s /\
                       tp22_cm_message_size d = sz /\ tp22_cm_segment_num d = n /\ tp22_cm_pgn d = p
  | EOMA22 s sz n p => tp22_cm_control_byte d = tp22_ctl_EOM_ACK /\ tp22_cm_session_num d = s /\
                       tp22_cm_message_size d = sz /\ tp22_cm_segment_num d = n /\ tp22_cm_pgn d = p
  | BAM22 s sz n p => tp22_cm_control_byte d = tp22_ctl_BAM /\ tp22_cm_session_num d = s /\
                      tp22_cm_message_size d = sz /\ tp22_cm_segment_num d = n /\ tp22_cm_pgn d = p
  | ABORT22 s r p => tp22_cm_control_byte d = tp22_ctl_ABORT /\ tp22_cm_session_num d = s /\ byte_at d 8 = r /\
                     tp22_cm_pgn d = p
  end.
Proof.
  destruct m; cbn [cm22_wf enc_cm22]; unfold le3; cbn [app]; intros H; cbv zeta; (split; [reflexivity|]);
    unfold tp22_cm_control_byte, tp22_cm_session_num, tp22_cm_message_size, tp22_cm_segment_num, tp22_cm_pgn, byte_at;
    cbn [nth]; rewrite nibbles_low, nibbles_high, ?le3_read by (apply H || lia); repeat split.
Qed.

Theorem fd_dt_extraction_of_spec_frames s k seg :
  0 <= s < 16 -> r24 k ->
  let d := enc_dt22 s k seg in
  tp22_dt_dtfi d = 0 /\ tp22_dt_session_num d = s /\ tp22_dt_segment_num d = k.
Proof.
  intros Hs Hk. unfold enc_dt22. cbn [le3 app]. cbv zeta.
  unfold tp22_dt_dtfi, tp22_dt_session_num, tp22_dt_segment_num, byte_at. cbn [nth].
  change (16 * s) with (0 + 16 * s). rewrite nibbles_low, nibbles_high, le3_read by (assumption || lia).
  repeat split.
Qed.

(* ---------------------------------------------------------------- the independent receiver on the stack's data frames *)
Lemma enc_dt22_full s k seg : length seg = 60%nat -> enc_dt22 s k seg = [16 * s] ++ le3 k ++ seg.
Proof.
  intros H. unfold enc_dt22. cbn [le3 app length]. rewrite H. cbn [repeat Nat.sub app].
  change (Z.to_nat (fd_fit (Z.of_nat 64)) - 64)%nat with 0%nat. cbn [repeat]. rewrite app_nil_r. reflexivity.
Qed.

Lemma collect22_rows s p : 0 <= s < 16 -> forall m j,
  (60 * (j + m) < length p + 60)%nat -> (length p <= 60 * (j + m))%nat -> Z.of_nat (j + m) < 16777216 ->
  exists pad, collect22 s (Z.of_nat j + 1) (map (fun k => enc_dt22 s (Z.of_nat k + 1) (row p k)) (seq j m)) =
              Some (skipn (60 * j) p ++ pad).
Proof.
  intros Hs. induction m as [|m IH]; intros j H1 H2 H3.
  - exists []. cbn [seq map collect22]. rewrite skipn_all2 by lia. reflexivity.
  - cbn [seq map collect22].
    destruct (dec_enc_dt22 s (Z.of_nat j + 1) (row p j) Hs ltac:(unfold r24; lia)) as (pad & E & _). rewrite E.
    rewrite !Z.eqb_refl. cbn [andb].
    replace (Z.of_nat j + 1 + 1) with (Z.of_nat (S j) + 1) by lia.
    destruct m as [|m'].
    + cbn [seq map collect22]. exists pad. rewrite app_nil_r. f_equal. f_equal.
      unfold row. apply firstn_all2. rewrite skipn_length. lia.
    + destruct (IH (S j) ltac:(lia) ltac:(lia) ltac:(lia)) as (pad2 & E2). rewrite E2.
      (* a full row carries no padding *)
      assert (L : length (row p j) = 60%nat) by (apply row_len_full; lia).
      rewrite enc_dt22_full in E by exact L. cbn [le3 app dec_dt22] in E. injection E as _ _ _ Epad.
      exists pad2. f_equal. rewrite <- Epad. rewrite app_assoc. f_equal.
      unfold row. replace (60 * S j)%nat with (60 * j + 60)%nat by lia. rewrite <- skipn_add. apply firstn_skipn.
Qed.

(* T03.4 (FD): what the independent receiver makes of the data frames the stack emits for p *)
Theorem fd_data_frames_reassemble s p :
  0 <= s < 16 -> (0 < length p)%nat -> Z.of_nat (length p) < 16777216 ->
  let ns := ((length p + 59) / 60)%nat in
  reassemble22 s (len p) (map (fun k => enc_dt22 s (Z.of_nat k + 1) (row p k)) (seq 0 ns)) = Some p.
Proof.
  intros Hs Hp Hl ns. unfold reassemble22.
  destruct (collect22_rows s p Hs ns 0%nat) as (pad & E); try (unfold ns; lia).
  change (Z.of_nat 0 + 1) with 1 in E. replace (60 * 0)%nat with 0%nat in E by lia. cbn [skipn] in E. rewrite E.
  unfold len.
  destruct (Z.of_nat (length (p ++ pad)) <? Z.of_nat (length p)) eqn:G.
  { rewrite app_length in G. lia. }
  rewrite Nat2Z.id. rewrite firstn_app, firstn_all, Nat.sub_diag. cbn [firstn]. rewrite app_nil_r. reflexivity.
Qed.

(* ---------------------------------------------------------------- the closed loop's wire, read by the independent receiver *)
Definition fd_wire (prio sa dest pv : Z) (p : list Z) (lim : Z) : list frame :=
  let ns := ((length p + 59) / 60)%nat in
  tp22_rts prio sa dest 0 pv (len p) (Z.of_nat ns) lim
  :: map (fun k => match dt_frame sa dest 0 (Z.of_nat k + 1) (row p k) with
                   | Some (fr, _) => fr | None => tp22_eom_status sa dest 0 (len p) (Z.of_nat ns) pv end) (seq 0 ns)
  ++ [tp22_eom_status sa dest 0 (len p) (Z.of_nat ns) pv].


Theorem fd_wire_is_spec prio sa dest pv p lim :
  0 <= prio < 8 -> 0 <= sa < 256 -> 0 <= dest < 256 -> 0 <= lim < 256 -> r24 pv -> (0 < length p)%nat -> len p < 16777216 ->
  let ns := ((length p + 59) / 60)%nat in
  exists rts dts eoms,
    fd_wire prio sa dest pv p lim = rts :: dts ++ [eoms] /\
    f_id rts = sae_id prio (sae_fd_cm_pgn dest) sa /\ dec_cm22 (f_data rts) = Some (RTS22 0 (len p) (Z.of_nat ns) lim pv) /\
    Forall (fun fr => f_id fr = sae_id 7 (sae_fd_dt_pgn dest) sa /\ f_ext fr = true /\ f_fd fr = true) dts /\
    reassemble22 0 (len p) (map f_data dts) = Some p /\
    f_id eoms = sae_id 7 (sae_fd_cm_pgn dest) sa /\ dec_cm22 (f_data eoms) = Some (EOMS22 0 (len p) (Z.of_nat ns) pv).
Proof.
  intros Hp Hs Hd Hl Hpv Hn Hlen ns. unfold fd_wire. fold ns.
  assert (Hns : r24 (Z.of_nat ns)) by (unfold r24, len in *; unfold ns; lia).
  assert (Hsz : r24 (len p)) by (unfold r24, len in *; lia).
  (* every data frame is the spec's *)
  rewrite (map_ext _ (fun k => {| f_id := sae_id 7 (sae_fd_dt_pgn dest) sa; f_ext := true; f_fd := true;
                                  f_data := enc_dt22 0 (Z.of_nat k + 1) (row p k) |})).
  2:{ intros k. destruct (fd_dt_is_spec sa dest 0 (Z.of_nat k + 1) (row p k) Hd Hs ltac:(lia) (row_len_le p k)) as (seg' & ->).
      reflexivity. }
  eexists _, _, _. split; [reflexivity|].
  rewrite fd_rts_is_spec, fd_eom_status_is_spec by lia. cbn [f_id f_data].
  rewrite !dec_enc_cm22 by (cbn [cm22_wf]; split; [lia|auto]). rewrite map_map. cbn [f_data].
  repeat split.
  - apply Forall_forall. intros fr Hin. apply in_map_iff in Hin. destruct Hin as (k & <- & _). auto.
  - apply (fd_data_frames_reassemble 0 p); unfold len in *; lia.
Qed.

(* T03.4 (FD), end to end: in the closed loop of two FD model nodes, what the originator puts on the wire for p is, read by
   the independent receiver of Sae22.v (its own identifier layout, its own decoder, its own reassembler), exactly: one
   request to send announcing (size, segments, window limit, PGN) under session 0, data frames numbered 1.. that reassemble
   to p, one end-of-message status with the same figures — and p is delivered at B (C02's conclusion) *)
Theorem closed_loop22_wire_is_spec prio sa dest dp pf p t0 A0 B0 :
  0 <= prio < 8 -> 0 <= sa < 255 -> 0 <= dest < 255 -> 0 <= pf < 240 -> 0 <= dp < 2 -> 60 < len p < 16777216 -> 0 < t0 ->
  f_snd A0 = [] /\ f_rcv A0 = [] /\ f_mpg A0 = [] /\ n_timers (base A0) = [] /\ n_cmdt_iv (base A0) = None /\
    accepts (base A0) sa = true /\ 1 <= n_maxp (base A0) < 256 /\ f_rts A0 = repeat true tp22_pool_rts ->
  f_snd B0 = [] /\ f_rcv B0 = [] /\ f_mpg B0 = [] /\ n_timers (base B0) = [] /\ accepts (base B0) dest = true /\ 1 <= n_maxp (base B0) ->
  let pv := dp * 65536 + pf * 256 in
  let ns := ((length p + 59) / 60)%nat in
  let lim := Z.min (n_maxp (base A0)) (Z.of_nat ns) in
  exists j rts dts eoms, let s := Net22.steps22 j (Net22.net22_send (Net22.net22_0 A0 B0 t0) dp pf dest prio sa p) in
    Net22.evb2 s = deliveries (base B0) 7 pv sa dest p /\
    Net22.wab2 s = rts :: dts ++ [eoms] /\
    f_id rts = sae_id prio (sae_fd_cm_pgn dest) sa /\ dec_cm22 (f_data rts) = Some (RTS22 0 (len p) (Z.of_nat ns) lim pv) /\
    Forall (fun fr => f_id fr = sae_id 7 (sae_fd_dt_pgn dest) sa /\ f_ext fr = true /\ f_fd fr = true) dts /\
    reassemble22 0 (len p) (map f_data dts) = Some p /\
    f_id eoms = sae_id 7 (sae_fd_cm_pgn dest) sa /\ dec_cm22 (f_data eoms) = Some (EOMS22 0 (len p) (Z.of_nat ns) pv).
Proof.
  intros H1 H2 H3 H4 H5 H6 H7 HA HB pv ns lim.
  destruct (closed_loop22_delivers prio sa dest dp pf p t0 A0 B0 H1 H2 H3 H4 H5 H6 H7 HA HB) as (j & H).
  cbv zeta in H. destruct H as (_ & _ & _ & _ & _ & _ & _ & Q8 & Q9).
  assert (Hlen : (0 < length p)%nat) by (unfold len in H6; lia).
  assert (Hlim : 0 <= lim < 256) by (unfold lim; destruct HA as (_ & _ & _ & _ & _ & _ & Hm & _); lia).
  destruct (fd_wire_is_spec prio sa dest pv p lim H1 ltac:(lia) ltac:(lia) Hlim ltac:(unfold r24, pv; lia) Hlen ltac:(lia))
    as (rts & dts & eoms & W & R).
  exists j, rts, dts, eoms. cbv zeta. split; [exact Q8|]. split; [|exact R].
  rewrite Q9. exact W.
Qed.
