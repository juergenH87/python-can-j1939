(* Net22Timeout.v — C06 end to end on J1939-22: a responder that does not answer.  In the closed loop of two FD model nodes
   (Net22.v), B does not accept the destination address: A's RTS stays unanswered, the network's clock advances by exactly
   T3 = 1.25 s (not T5 = 3 s, which is for the end-of-message acknowledge only), A's job thread then sends the Connection
   Abort (timeout), releases the session and returns its number to the pool; nothing was delivered and nothing is left. *)
From J1939 Require Import Base CodecGlue Model21 Model22.
From J1939.gen Require Import Codec Tp21Gen CaGen Tp22Gen.
From J1939P Require Import CodecProofs Flat MpgProofs PoolProofs TimeoutProofs22 Tp21Seg Tp21Resp Tp22Proofs Tp22Resp Net22Jobs Net21 Net21Proofs Net22 Net22Proofs.
Local Arguments Z.add : simpl never.
Local Arguments Z.sub : simpl never.
Local Arguments Z.mul : simpl never.

Section Silent22.
  Variables (prio sa dest dp pf : Z) (p : list Z) (t0 : Z) (A0 B0 : node22).
  Hypothesis Hprio : 0 <= prio < 8.
  Hypothesis Hsa : 0 <= sa < 255.
  Hypothesis Hdest : 0 <= dest < 255.
  Hypothesis Hpf : 0 <= pf < 240.
  Hypothesis Hdp : 0 <= dp < 2.
  Hypothesis Hsize : 60 < len p < 16777216.
  Hypothesis Ht0 : 0 < t0.
  Let pv := dp * 65536 + pf * 256.
  Let ns := ((length p + 59) / 60)%nat.
  Let nseg := Z.of_nat ns.
  Let h := tp22_hash 0 sa dest.
  Hypothesis HA : f_snd A0 = [] /\ f_rcv A0 = [] /\ f_mpg A0 = [] /\ n_timers (base A0) = [] /\ n_cmdt_iv (base A0) = None /\
                  accepts (base A0) sa = true /\ 1 <= n_maxp (base A0) < 256 /\ f_rts A0 = repeat true tp22_pool_rts.
  Hypothesis HB : f_snd B0 = [] /\ f_rcv B0 = [] /\ f_mpg B0 = [] /\ n_timers (base B0) = [] /\ 1 <= n_maxp (base B0).

  Let rtsf : frame := tp22_rts prio sa dest 0 pv (len p) nseg (Z.min (n_maxp (base A0)) nseg).
  Let abortA : frame := tp22_abort sa dest 0 tp22_reason_TIMEOUT pv.
  Let sbw : sbuf22 :=
    {| t_pgn := pv; t_prio := prio; t_session := 0; t_size := len p; t_nseg := nseg; t_data := segments p; t_state := tp22_st_WAITING_CTS;
       t_deadline := t0 + tp22_T3; t_src := sa; t_dst := dest; t_next := 0; t_waitcts := Some 0; t_nb := 0 |}.
  Let A1 : node22 := wake22 (set_fsnd (set_frts A0 (false :: repeat true 7)) [(h, sbw)]).
  Let A2 : node22 := set_frts (set_fsnd A1 []) (repeat true tp22_pool_rts).
  (* the network while B stays silent: nothing has been delivered, B has sent nothing *)
  Let net (a : node22) (q : list frame) (c : Z) (w : list frame) : net22 :=
    {| fa := a; fb := B0; pa := []; pb := q; fclk := c; eva2 := []; evb2 := []; wab2 := w; wba2 := [] |}.

  Lemma s0_eq22 : net22_send (net22_0 A0 B0 t0) dp pf dest prio sa p = net A1 [rtsf] t0 [rtsf].
  Proof.
    destruct HA as (As & Ar & Am & At & Ai & Aa & Amx & Ap).
    unfold net22_send, net22_0. cbn [fa fb pa pb fclk eva2 evb2 wab2 wba2].
    rewrite (send_pgn22_rts prio sa dest dp pf p A0 B0 Hdest Hpf Hdp Hsize A0 t0 As Ap eq_refl). reflexivity.
  Qed.

  Lemma step_deaf a f q c w : handle22 B0 c f = (B0, []) -> step22 (net a (f :: q) c w) = net a q c w.
  Proof. intros E. rewrite (step22_b (net a (f :: q) c w) f q) by reflexivity. cbn [net fb fclk]. rewrite E. reflexivity. Qed.

  Theorem silent_responder22_abandoned_after_T3 : accepts (base B0) dest = false ->
    let s := steps22 4 (net22_send (net22_0 A0 B0 t0) dp pf dest prio sa p) in
    pa s = [] /\ pb s = [] /\ f_snd (fa s) = [] /\ f_rcv (fa s) = [] /\ f_rts (fa s) = repeat true tp22_pool_rts /\ fb s = B0 /\
    evb2 s = [] /\ eva2 s = [] /\ wab2 s = [rtsf; abortA] /\ wba2 s = [] /\ fclk s = t0 + tp22_T3.
  Proof using Hprio Hsa Hdest Hpf Hdp Hsize Ht0 HA HB.
    intros Hacc. destruct HB as (Bs & Br & Bm & Bt & _). destruct HA as (_ & Ar & Am & At & _).
    assert (Hs : f_snd A1 = [(h, sbw)]) by reflexivity.
    (* B ignores the RTS *)
    assert (S1 : step22 (net A1 [rtsf] t0 [rtsf]) = net A1 [] t0 [rtsf]).
    { apply step_deaf, (deaf22 B0 t0 rtsf prio dest sa 77 Hacc); try reflexivity; lia. }
    (* nothing to do: the clock advances to A's deadline *)
    assert (S2 : step22 (net A1 [] t0 [rtsf]) = net A1 [] (t0 + tp22_T3) [rtsf]).
    { rewrite (step22_idle (net A1 [] t0 [rtsf])) by reflexivity. cbn [net fa fb fclk eva2 evb2 wab2 wba2].
      rewrite (job22_snd_wait A1 t0 h sbw Ar Am At Hs), minw_deadline by (cbn [sbw t_deadline]; unfold tp22_T3; lia).
      rewrite (job22_idle B0 t0 Br Bm Bs Bt). cbn [txs flat_map evs filter app sleep_of andb]. rewrite !Z.eqb_refl. cbn [andb].
      unfold net. f_equal. cbn [sbw t_deadline]. unfold tp22_T3. lia. }
    (* the job thread gives up: abort, session and session number released *)
    assert (Hp2p : kind sbw = false) by (apply Z.eqb_neq; cbn [sbw t_dst]; unfold addr_GLOBAL; lia).
    assert (S3 : step22 (net A1 [] (t0 + tp22_T3) [rtsf]) = net A2 [abortA] (t0 + tp22_T3) [rtsf; abortA]).
    { refine (step22_sends (net A1 [] (t0 + tp22_T3) [rtsf]) A2 [OTx abortA] _ B0 [] _ eq_refl eq_refl _ (job22_idle B0 _ Br Bm Bs Bt) ltac:(discriminate)).
      cbn [net fa fclk]. rewrite (job22_snd A1 (t0 + tp22_T3) h sbw Ar Am Hs).
      destruct (snd22_timeout_releases h (t0 + tp22_T3) (t0 + tp22_T3 + 5000000) A1 (job22_end (t0 + tp22_T3)) sbw) as (a' & Hret & ->);
        [rewrite Hs; apply tget_single|reflexivity|cbn [sbw t_deadline]; unfold tp22_T3; lia|cbn [sbw t_deadline]; lia
        |exact (first_in_pool A1 sbw false _ Hp2p eq_refl eq_refl)|].
      rewrite (first_returned _ _ _ false _ Hret Hp2p eq_refl eq_refl), job22_end_done by exact At. rewrite Hs, tdel_single. reflexivity. }
    (* B ignores the abort *)
    assert (S4 : step22 (net A2 [abortA] (t0 + tp22_T3) [rtsf; abortA]) = net A2 [] (t0 + tp22_T3) [rtsf; abortA]).
    { apply step_deaf, (deaf22 B0 _ abortA 7 dest sa 77 Hacc); try reflexivity; lia. }
    rewrite s0_eq22. cbn [steps22]. rewrite S1, S2, S3, S4. cbn [net fa fb pa pb fclk eva2 evb2 wab2 wba2].
    repeat split; try reflexivity. exact Ar.
  Qed.
End Silent22.

Example silent_responder22_instance :
  let A := sub22 (init_node22 3 None None) 1 (FAddr 128) in
  let B := sub22 (init_node22 2 None None) 7 (FAddr 145) in
  let s := steps22 4 (net22_send (net22_0 A B 1000) 0 239 144 6 128 (map Z.of_nat (seq 1 150))) in
  quiet22 s = true /\ length (wab2 s) = 2%nat /\ fclk s = 1251000 /\ evb2 s = [].
Proof. vm_compute. repeat split. Qed.
