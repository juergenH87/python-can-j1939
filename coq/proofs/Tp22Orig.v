(* Tp22Orig.v — C09 (J1939-22): the FD originator obeys flow control and pacing.
   * a session waiting for a CTS (or for the end-of-message acknowledgement) whose deadline lies in the future
     emits nothing in a job pass, whatever else is in the table entry
   * after CTS(g, x+1) the burst loop emits only data frames with segment numbers x+1 .. x+g, in increasing order,
     at most g of them, and then waits for the next CTS (or for the acknowledgement after the last segment)
   * a broadcast session emits nothing before its deadline and exactly one data frame at it, re-armed by the
     configured interval
   * on the responder side, no CTS grants more than the RTS limit or the own maximum (T09.2) *)
From J1939 Require Import Base CodecGlue Model21 Model22.
From J1939.gen Require Import Codec Tp21Gen CaGen Tp22Gen.
From J1939P Require Import CodecProofs Flat Tp21Seg Tp21Resp TimeoutProofs MpgProofs PoolProofs Steps22 TimeoutProofs22 Tp22Proofs Tp22Resp.
Local Arguments Z.add : simpl never.
Local Arguments Z.sub : simpl never.
Local Arguments Z.mul : simpl never.

Theorem fd_waiting_session_silent key now nw m k b :
  tget (f_snd m) key = Some b -> 0 <= now < t_deadline b ->
  flat22 (snd_pass22 [key] now nw m k) = flat22 (k m (minw nw (t_deadline b))).
Proof.
  intros G Hd. rewrite (snd22_before_deadline key now nw m k b G); [reflexivity|lia|lia].
Qed.

Lemma dt_frame_segnum src dst s k seg fr seg' :
  dt_frame src dst s k seg = Some (fr, seg') -> 0 <= s < 16 -> 0 <= k < 16777216 ->
  f_id fr = tp22_dt_id src dst /\ tp22_dt_segment_num (f_data fr) = k /\ tp22_dt_session_num (f_data fr) = s.
Proof.
  intros H Hs Hk. destruct (dt_frame_inv _ _ _ _ _ _ _ H) as (rest & -> & _).
  destruct (dt_hdr_fields s k rest Hs Hk) as [A B]. repeat split; assumption.
Qed.

(* ---------------------------------------------------------------- the burst stays inside the grant *)
Definition is_dt_in (src dst s lo hi : Z) (o : out) : Prop :=
  match o with
  | OTx fr => f_id fr = tp22_dt_id src dst /\ tp22_dt_session_num (f_data fr) = s /\ lo <= tp22_dt_segment_num (f_data fr) <= hi
  | _ => False
  end.

(* the frames of a burst: data frames with strictly increasing segment numbers in (lo-1, hi], possibly followed by
   the end-of-message status when (and only when) the last segment of the message went out *)
Inductive burst_outs (src dst s : Z) (eoms : out) : Z -> Z -> list out -> Prop :=
| bo_nil lo hi : burst_outs src dst s eoms lo hi []
| bo_eom lo hi fr : lo <= hi -> is_dt_in src dst s lo lo (OTx fr) -> burst_outs src dst s eoms lo hi [OTx fr; eoms]
| bo_cons lo hi fr os : lo <= hi -> is_dt_in src dst s lo lo (OTx fr) -> burst_outs src dst s eoms (lo + 1) hi os ->
                        burst_outs src dst s eoms lo hi (OTx fr :: os).

Lemma fouts22_emit m o (c : node22 -> act node22) : fouts22 (Emit m o c) = o :: fouts22 (c m).
Proof. unfold fouts22. cbn [flat22]. destruct (flat22 (c m)) as [[m' os] r]. reflexivity. Qed.

(* what the burst loop puts on the bus, whatever follows it: a burst inside the grant, then nothing (the loop raised) or
   what the continuation emits *)
Lemma fd_burst_within_grant key now w k : forall fuel m b,
  tget (f_snd m) key = Some b -> t_waitcts b = Some w ->
  0 <= t_session b < 16 -> 0 <= t_next b -> t_next b <= w -> w + 1 < 16777216 ->
  exists os rest, fouts22 (fd_burst fuel key now m k) = os ++ rest /\
    burst_outs (t_src b) (t_dst b) (t_session b) (OTx (tp22_eom_status (t_src b) (t_dst b) (t_session b) (t_size b) (t_nseg b) (t_pgn b)))
               (t_next b + 1) (w + 1) os /\
    (rest = [] \/ exists m1, rest = fouts22 (k m1)).
Proof.
  assert (Hnil : forall a src dst s eoms lo hi, fouts22 a = [] ->
            exists os rest, fouts22 a = os ++ rest /\ burst_outs src dst s eoms lo hi os /\ (rest = [] \/ exists m1, rest = fouts22 (k m1))).
  { intros a src dst s eoms lo hi E. exists [], []. split; [exact E|]. split; [constructor|left; reflexivity]. }
  induction fuel as [|f IH]; intros m b G Hw Hs H0 Hle Hmax; [apply Hnil; reflexivity|].
  rewrite (fd_burst_S _ _ _ _ _ _ G).
  destruct (t_next b <? t_nseg b).
  2:{ exists [], (fouts22 (k m)). split; [reflexivity|]. split; [constructor|right; exists m; reflexivity]. }
  destruct (fd_next _ now b) as [[b2 brk]|] eqn:En; [|apply Hnil; reflexivity].
  destruct (fd_next_fields _ _ _ _ _ En) as (N2 & (F1 & F2 & F3 & F4 & F5 & F6 & F7 & F8) & Hbrk).
  destruct (py_nth (t_data b) (t_next b)) as [seg|]; [|apply Hnil; reflexivity].
  destruct (dt_frame _ _ _ _ seg) as [[fr seg']|] eqn:Efr; [|apply Hnil; reflexivity].
  assert (Hdt : is_dt_in (t_src b) (t_dst b) (t_session b) (t_next b + 1) (t_next b + 1) (OTx fr)).
  { destruct (dt_frame_segnum _ _ _ _ _ _ _ Efr Hs ltac:(lia)) as (I1 & I2 & I3). cbn [is_dt_in]. repeat split; try assumption; lia. }
  rewrite fouts22_emit. set (m2 := set_fsnd m _).
  destruct (t_next b + 1 =? t_nseg b); [|destruct brk].
  - rewrite fouts22_emit. eexists [_; _], _. split; [reflexivity|]. split; [apply bo_eom; [lia|exact Hdt]|right; exists m2; reflexivity].
  - eexists [_], _. split; [reflexivity|]. split; [apply bo_cons; [lia|exact Hdt|constructor]|right; exists m2; reflexivity].
  - (* the loop goes on: the next turn finds the session one segment further inside the same window *)
    destruct Hbrk as (_ & _ & _ & Hin & _). rewrite Hw in Hin. assert (Hnw : t_next b <> w) by congruence.
    specialize (IH m2 _ (tget_tset_same _ _ _) (eq_trans F7 Hw)).
    cbn [with_tdata t_src t_dst t_session t_size t_nseg t_pgn t_next] in IH.
    rewrite F1, F2, F3, F4, F5, F6, N2 in IH.
    destruct (IH Hs ltac:(lia) ltac:(lia) Hmax) as (os & rest & E & HB & Hrest).
    rewrite E. exists (OTx fr :: os), rest. split; [reflexivity|]. split; [apply bo_cons; [lia|exact Hdt|exact HB]|exact Hrest].
Qed.

(* T09.1/T09.2 (FD): a job pass over a session that a CTS(g, x+1) has put into SENDING_RTS_CTS (next = x, window end
   w = x+g-1) emits, for that session, only data frames numbered x+1 .. w+1 in increasing order — at most the
   granted number, none that the responder has not cleared — possibly followed by the end-of-message status when the
   last segment of the message went out; everything else in the pass output comes from the continuation *)
Theorem fd_pass_within_grant key now nw m k b w :
  tget (f_snd m) key = Some b ->
  t_state b = tp22_st_SENDING_RTS_CTS -> t_waitcts b = Some w ->
  0 <= t_session b < 16 -> 0 <= t_next b -> t_next b <= w -> w + 1 < 16777216 ->
  t_deadline b <> 0 -> t_deadline b <= now ->
  exists os rest, fouts22 (snd_pass22 [key] now nw m k) = os ++ rest /\
    burst_outs (t_src b) (t_dst b) (t_session b)
               (OTx (tp22_eom_status (t_src b) (t_dst b) (t_session b) (t_size b) (t_nseg b) (t_pgn b)))
               (t_next b + 1) (w + 1) os /\
    (forall o, In o rest -> exists m' nw', In o (fouts22 (k m' nw'))).
Proof.
  intros G Hst Hw Hs H0 Hle Hmax Hd0 Hdl.
  rewrite (snd_pass22_due _ _ _ _ _ _ b G Hd0 Hdl), Hst. change (snd22_class tp22_st_SENDING_RTS_CTS) with DBurst. cbv iota.
  edestruct (fd_burst_within_grant key now w) as (os & rest & E & HB & Hrest); [exact G|exact Hw|exact Hs|exact H0|exact Hle|exact Hmax|].
  exists os, rest. split; [exact E|]. split; [exact HB|].
  destruct Hrest as [->|(m1 & ->)]; [intros o []|].
  destruct (tget (f_snd m1) key) as [b1|]; [|intros o []].
  intros o Ho. eexists _, _. exact Ho.
Qed.

(* T09.3 (FD): a broadcast session at its deadline emits exactly ONE data frame — segment next+1 — and is re-armed
   by the configured interval; before the deadline it is silent (fd_waiting_session_silent) *)
Theorem fd_bam_sends_one_and_rearms key now nw m k b seg fr seg' :
  tget (f_snd m) key = Some b -> t_state b = tp22_st_SENDING_BAM ->
  t_deadline b <> 0 -> t_deadline b <= now ->
  py_nth (t_data b) (t_next b) = Some seg ->
  dt_frame (t_src b) (t_dst b) (t_session b) (t_next b + 1) seg = Some (fr, seg') ->
  let b0 := with_tdata b (py_set (t_data b) (t_next b) seg') in
  let st := if t_next b + 1 <? t_nseg b then tp22_st_SENDING_BAM else tp22_st_SENDING_EOM_STATUS in
  let b2 := upd_t b0 st (now + f_bam_iv m) (t_next b + 1) in
  flat22 (snd_pass22 [key] now nw m k) =
  let '(s, os, r) := flat22 (k (set_fsnd m (tset (f_snd m) key b2)) (minw nw (now + f_bam_iv m))) in
  (s, OTx fr :: os, r).
Proof.
  intros G Hst Hd0 Hdl Hseg Hfr b0 st b2.
  rewrite (snd_pass22_due _ _ _ _ _ _ b G Hd0 Hdl), Hst. change (snd22_class tp22_st_SENDING_BAM) with DBam. cbv iota.
  rewrite Hseg, Hfr. cbn [flat22 f_snd set_fsnd]. rewrite tget_tset_same.
  cbn [with_tdata t_next t_nseg t_state upd_t t_deadline]. rewrite Hst.
  rewrite tset_tset_same. cbn [snd_pass22]. fold b0. fold st. fold b2. reflexivity.
Qed.

(* T09.2 (FD responder): grants never exceed the originator's RTS limit nor the own maximum.  The first CTS grants
   min(own max, RTS limit, segments) (responder22_rts_opens) ... *)
Theorem fd_first_grant_bounded maxp limit nseg :
  Z.min maxp (Z.min limit nseg) <= limit /\ Z.min maxp (Z.min limit nseg) <= maxp /\ Z.min maxp (Z.min limit nseg) <= nseg.
Proof. lia. Qed.

(* ... and every later CTS, emitted by the data-frame handler at a window border, grants min(that first grant,
   segments left): the ONLY frame a data frame can trigger is that CTS *)
Theorem fd_later_grants_bounded prio sa dest data now m b :
  tget (f_rcv m) (tp22_hash (tp22_dt_session_num data) sa dest) = Some b ->
  fouts22 (process_tp_dt22 prio sa dest data now m) = [] \/
  exists border mr, q_border b = Some border /\ q_maxrec b = Some mr /\
    fouts22 (process_tp_dt22 prio sa dest data now m) =
      [OTx (tp22_cts dest sa (tp22_dt_session_num data) (Z.min mr (q_nseg b - border)) (border + 1) (q_pgn b))] /\
    Z.min mr (q_nseg b - border) <= mr.
Proof.
  intros G. unfold fouts22.
  destruct (dt22_cases prio sa dest data now m) as [->|(b' & Hlen & Hne & G' & Hnext)]; [left; reflexivity|].
  rewrite G in G'. injection G' as <-.
  destruct (dt22_accepted prio sa dest data now m b Hlen Hne G Hnext) as (bd & dl & m' & os & r & -> & _ & _ & Hos).
  destruct Hos as [->|(border & mr & Eb & Em & ->)]; [left; reflexivity|].
  right. exists border, mr. repeat split; try assumption. lia.
Qed.
