(* NoOversleepTimers.v — C12 (and C06/C09 through job_iter): the job thread never sleeps past a timer deadline.
   After the timer pass of one job iteration the wake-up time is not later than the deadline of ANY registration still in the
   list — periodic or one-shot, examined, advanced or left alone, value-equal twins included — except registrations that were
   added DURING the pass, and for those a wake-up token is pending (add_timer wakes the job thread), so the sleep ends at once. *)
From J1939 Require Import Base CodecGlue Model21.
From J1939.gen Require Import Codec Tp21Gen CaGen.
From J1939P Require Import CodecProofs Flat ClaimProofs Steps21 RobustProofs TimerProofs NoOversleep.
Local Arguments Z.add : simpl never.
Local Arguments Z.sub : simpl never.
Local Arguments Z.mul : simpl never.

Lemma timer_eqb_deadline a b : timer_eqb a b = true -> tm_deadline a = tm_deadline b.
Proof. unfold timer_eqb. intros H. apply andb_prop in H. destruct H as [_ H]. lia. Qed.

Lemma remove_first_app_in ev : forall A B, timer_in ev A = true -> remove_first ev (A ++ B) = remove_first ev A ++ B.
Proof.
  induction A as [|x r IH]; intros B H; [discriminate|].
  cbn [app remove_first]. unfold timer_in in H. cbn [existsb] in H.
  destruct (timer_eqb x ev) eqn:E; [reflexivity|]. cbn [orb] in H. cbn [app]. f_equal. apply IH. exact H.
Qed.
Lemma remove_first_app_out ev : forall A B, timer_in ev A = false -> remove_first ev (A ++ B) = A ++ remove_first ev B.
Proof.
  induction A as [|x r IH]; intros B H; [reflexivity|].
  cbn [app remove_first]. unfold timer_in in H. cbn [existsb] in H.
  destruct (timer_eqb x ev) eqn:E; [discriminate|]. cbn [orb] in H. f_equal. apply IH. exact H.
Qed.
Lemma In_remove_first ev : forall l t, In t (remove_first ev l) -> In t l.
Proof.
  induction l as [|x r IH]; intros t H; [exact H|]. cbn [remove_first] in H.
  destruct (timer_eqb x ev); [right; exact H|]. destruct H as [H|H]; [left; exact H|right; apply IH; exact H].
Qed.
Lemma NoDup_ids_remove_first ev : forall l, NoDup (map tm_id l) -> NoDup (map tm_id (remove_first ev l)).
Proof.
  induction l as [|x r IH]; intros H; [exact H|]. cbn [remove_first].
  cbn [map] in H. inversion H as [|? ? Hni Hnd]; subst.
  destruct (timer_eqb x ev); [exact Hnd|]. cbn [map]. constructor; [|apply IH; exact Hnd].
  intro Hin. apply Hni. apply in_map_iff in Hin. destruct Hin as [t [Et Ht]]. apply in_map_iff. exists t.
  split; [exact Et|apply (In_remove_first ev); exact Ht].
Qed.

Lemma upd_timer_other id dl : forall l, (forall t, In t l -> tm_id t <> id) -> upd_timer_deadline l id dl = l.
Proof.
  unfold upd_timer_deadline. induction l as [|x r IH]; intros H; [reflexivity|]. cbn [map].
  assert ((tm_id x =? id) = false) as -> by (specialize (H x (or_introl eq_refl)); lia).
  f_equal. apply IH. intros t Ht. apply H. right. exact Ht.
Qed.

Definition with_deadline (t : timer) (dl : Z) : timer :=
  {| tm_delta := tm_delta t; tm_cb := tm_cb t; tm_deadline := dl; tm_ret := tm_ret t; tm_id := tm_id t |}.

Lemma upd_split ev dl D R :
  (forall t, In t D -> tm_id t <> tm_id ev) -> (forall t, In t R -> tm_id t <> tm_id ev) ->
  upd_timer_deadline (D ++ ev :: R) (tm_id ev) dl = D ++ with_deadline ev dl :: R.
Proof.
  intros HD HR. unfold upd_timer_deadline. rewrite map_app. cbn [map]. rewrite Z.eqb_refl.
  fold (upd_timer_deadline D (tm_id ev) dl). fold (upd_timer_deadline R (tm_id ev) dl).
  rewrite (upd_timer_other _ _ D HD), (upd_timer_other _ _ R HR). reflexivity.
Qed.

(* ---------------------------------------------------------------- well-formed registrations
   Python tells the registration dicts apart by identity where the model has [tm_id]; what that needs is that the ids are
   distinct and below the counter add_timer draws them from. *)
Definition timers_wf (n : node) : Prop :=
  NoDup (map tm_id (n_timers n)) /\ forall t, In t (n_timers n) -> tm_id t < n_nextid n.

Lemma wf_ids n n' : map tm_id (n_timers n') = map tm_id (n_timers n) -> n_nextid n' = n_nextid n -> timers_wf n -> timers_wf n'.
Proof.
  intros Et Ei [Hnd Hlt]. unfold timers_wf. rewrite Et, Ei. split; [exact Hnd|]. intros t Ht.
  apply (in_map tm_id) in Ht. rewrite Et in Ht. apply in_map_iff in Ht. destruct Ht as (t0 & <- & Ht0). apply Hlt, Ht0.
Qed.
Lemma wf_remove_first n ev : timers_wf n -> timers_wf (set_timers n (remove_first ev (n_timers n))).
Proof.
  intros [Hnd Hlt]. split; nsimpl; [apply NoDup_ids_remove_first, Hnd|].
  intros t Ht. apply Hlt, (In_remove_first ev), Ht.
Qed.

Lemma NoDup_snoc (l : list Z) x : NoDup l -> ~ In x l -> NoDup (l ++ [x]).
Proof. intros Hnd Hni. apply (NoDup_Add (Add_app x l [])). rewrite app_nil_r. split; assumption. Qed.

Lemma add_timer_wf n now delta cb ret : timers_wf n -> timers_wf (add_timer n now delta cb ret).
Proof.
  intros [Hnd Hlt]. unfold timers_wf, add_timer. cbn. split.
  - rewrite map_app. cbn [map tm_id]. apply NoDup_snoc; [exact Hnd|].
    intro Hin. apply in_map_iff in Hin. destruct Hin as [t [E Ht]]. specialize (Hlt t Ht). lia.
  - intros t Ht. apply in_app_or in Ht. destruct Ht as [Ht|[Ht|[]]]; [specialize (Hlt t Ht); lia|subst t; cbn; lia].
Qed.

(* all that claim_async does, as far as the timer pass is concerned: it registers itself again (CA table aside) *)
Lemma claim_async_frame P i now n k :
  (forall l tts, post P (k (add_timer (set_cas n l) now tts (TClaim i) false))) -> post P (claim_async i now n k).
Proof.
  intros Hk. destruct (nth_error (n_cas n) i) as [c|] eqn:Hc; [|unfold claim_async; rewrite Hc; apply post_raise].
  pose proof (claim_async_flat i now n k c Hc) as E. destruct (ca_timer c) as [[c' outs] tts].
  exact (post_pre P _ _ _ E (Hk _ tts)).
Qed.

(* ---------------------------------------------------------------- the timer pass
   The registrations during the pass: D examined and kept, each covered by the wake-up time nw; [rest] still to examine;
   N registered by callbacks of this pass, for which a wake-up token beyond w0 is pending.  The session tables stay r0, s0
   and nw only goes down from nw0. *)
Section Pass.
Variables (now w0 nw0 : Z) (r0 : tbl rbuf) (s0 : tbl sbuf).

Definition pass_inv (D rest N : list timer) (nw : Z) (n : node) : Prop :=
  n_timers n = D ++ rest ++ N /\ timers_wf n /\ (n_rcv n = r0 /\ n_snd n = s0) /\
  (nw <= nw0 /\ forall t, In t D -> nw <= tm_deadline t) /\
  ((N <> [] -> w0 < n_wakes n) /\ w0 <= n_wakes n).

Lemma inv_done D N nw n : pass_inv D [] N nw n -> forall t, In t (n_timers n) -> nw <= tm_deadline t \/ w0 < n_wakes n.
Proof.
  intros (HT & _ & _ & (_ & Hcov) & (Hw & _)) t Ht. rewrite HT in Ht. apply in_app_or in Ht.
  destruct Ht as [Ht|Ht]; [left; apply Hcov, Ht|right; apply Hw; intros E; rewrite E in Ht; exact Ht].
Qed.

Lemma inv_id_unique D ev rest N nw n : pass_inv D (ev :: rest) N nw n ->
  (forall t, In t D -> tm_id t <> tm_id ev) /\ (forall t, In t (rest ++ N) -> tm_id t <> tm_id ev).
Proof.
  intros (HT & [Hnd _] & _). rewrite HT, map_app in Hnd. cbn [app map] in Hnd. apply NoDup_remove_2 in Hnd.
  split; intros t Ht E; apply Hnd, in_or_app; [left|right]; rewrite <- E; apply in_map; exact Ht.
Qed.

Lemma inv_keep D ev ev' rest N nw nw1 n : pass_inv D (ev :: rest) N nw n ->
  tm_id ev' = tm_id ev -> nw1 <= nw -> nw1 <= tm_deadline ev' ->
  pass_inv (D ++ [ev']) rest N nw1 (set_timers n (D ++ ev' :: rest ++ N)).
Proof.
  intros (HT & Hwf & Hfr & (Hnw & Hcov) & Hw) Eid L1 L2.
  split; [nsimpl; rewrite <- app_assoc; reflexivity|]. split.
  { apply (wf_ids n); [nsimpl; rewrite HT; cbn [app]; rewrite !map_app; cbn [map]; rewrite Eid; reflexivity|reflexivity|exact Hwf]. }
  split; [exact Hfr|]. split; [|exact Hw]. split; [lia|]. intros t Ht. apply in_app_or in Ht.
  destruct Ht as [Ht|[<-|[]]]; [specialize (Hcov t Ht); lia|exact L2].
Qed.

(* a one-shot registration that has fired: list.remove takes the first value-equal entry.  If that is a twin among the
   examined ones, this registration stays, and is covered because the twin was *)
Lemma inv_remove D ev rest N nw n : pass_inv D (ev :: rest) N nw n ->
  exists D', pass_inv D' rest N nw (set_timers n (remove_first ev (n_timers n))).
Proof.
  intros (HT & Hwf & Hfr & (Hnw & Hcov) & Hw).
  assert (Hrest : forall D', remove_first ev (n_timers n) = D' ++ rest ++ N -> (forall t, In t D' -> nw <= tm_deadline t) ->
            pass_inv D' rest N nw (set_timers n (remove_first ev (n_timers n)))).
  { intros D' HT' Hcov'. split; [exact HT'|]. split; [apply wf_remove_first, Hwf|]. split; [exact Hfr|].
    split; [split; [exact Hnw|exact Hcov']|exact Hw]. }
  rewrite HT in Hrest |- *. destruct (timer_in ev D) eqn:ED.
  - exists (remove_first ev D ++ [ev]). apply Hrest; [rewrite (remove_first_app_in ev D _ ED), <- app_assoc; reflexivity|].
    unfold timer_in in ED. apply existsb_exists in ED. destruct ED as (x & Hx & Ex).
    intros t Ht. apply in_app_or in Ht. destruct Ht as [Ht|[<-|[]]]; [apply Hcov, (In_remove_first ev), Ht|].
    rewrite <- (timer_eqb_deadline _ _ Ex). apply Hcov, Hx.
  - exists D. apply Hrest; [|exact Hcov].
    rewrite (remove_first_app_out ev D _ ED). cbn [app remove_first]. rewrite timer_eqb_refl. reflexivity.
Qed.

Lemma inv_add_timer D rest N nw n t delta cb ret : pass_inv D rest N nw n ->
  pass_inv D rest (N ++ [{| tm_delta := delta; tm_cb := cb; tm_deadline := t + delta; tm_ret := ret; tm_id := n_nextid n |}]) nw
           (add_timer n t delta cb ret).
Proof.
  intros (HT & Hwf & Hfr & Hc & (Hw & Hw0)).
  split; [unfold add_timer; nsimpl; rewrite HT, <- !app_assoc; reflexivity|].
  split; [apply add_timer_wf, Hwf|]. split; [exact Hfr|]. split; [exact Hc|].
  unfold add_timer; nsimpl. split; [intros _|]; lia.
Qed.

Variable P : node -> Z -> Prop.

Lemma timer_pass_cover : forall rest D N nw n k, pass_inv D rest N nw n ->
  (forall D' N' nw' n', pass_inv D' [] N' nw' n' -> post P (k n' nw')) -> post P (timer_pass rest now nw n k).
Proof.
  induction rest as [|ev rest IH]; intros D N nw n k Hinv Hk; [exact (Hk D N nw n Hinv)|].
  assert (Hin : forall N1 n1, pass_inv D (ev :: rest) N1 nw n1 -> In ev (n_timers n1)).
  { intros N1 n1 H1. rewrite (proj1 H1). apply in_or_app. right. left. reflexivity. }
  (* the callback has returned [ret], having registered N1 *)
  assert (Hafter : forall ret N1 n1, pass_inv D (ev :: rest) N1 nw n1 -> post P (timer_after ev rest now nw k ret n1)).
  { intros ret N1 n1 H1. unfold timer_after. destruct ret.
    - destruct (inv_id_unique _ _ _ _ _ _ H1) as [UD UR].
      cbv zeta. rewrite (proj1 H1). cbn [app]. rewrite (upd_split ev _ D (rest ++ N1) UD UR).
      destruct (min_nw_le nw (advance_deadline (tm_deadline ev) (tm_delta ev) now)) as [L1 L2].
      exact (IH _ N1 _ _ k (inv_keep D ev (with_deadline ev _) rest N1 nw _ n1 H1 eq_refl L1 L2) Hk).
    - rewrite (timer_in_self _ _ (Hin N1 n1 H1)). destruct (inv_remove _ _ _ _ _ _ H1) as [D' H']. exact (IH D' N1 _ _ k H' Hk). }
  destruct (Z_lt_le_dec now (tm_deadline ev)) as [Hfut|Hdue].
  - rewrite (timer_not_early ev rest now nw n k (Hin N n Hinv) Hfut), <- (set_timers_same n).
    destruct (min_nw_le nw (tm_deadline ev)) as [L1 L2]. rewrite (proj1 Hinv).
    exact (IH _ N _ _ k (inv_keep D ev ev rest N nw _ n Hinv eq_refl L1 L2) Hk).
  - rewrite (timer_pass_due ev rest now nw n k (Hin N n Hinv) Hdue). destruct (tm_cb ev) as [cid|i].
    + apply post_emit, (Hafter _ N), Hinv.
    + apply claim_async_frame. intros l tts. eapply (Hafter false).
      apply (inv_add_timer D (ev :: rest) N nw (set_cas n l)), Hinv.
Qed.
End Pass.

(* ---------------------------------------------------------------- one whole iteration of the job loop *)
Definition all_covered (n0 n' : node) (nw : Z) : Prop :=
  rcv_covered n' nw /\ snd_covered n' nw /\
  (forall t, In t (n_timers n') -> nw <= tm_deadline t \/ n_wakes n0 < n_wakes n').

Lemma job_iter_post n now : tnodup (n_rcv n) -> tnodup (n_snd n) -> timers_wf n ->
  post (fun n' r => (r <= 5000000 /\ all_covered n n' (now + r)) /\ timers_wf n') (job_iter n now).
Proof.
  intros Hr Hs Hwf. unfold job_iter. apply dll_job_never_oversleeps; [exact Hr|exact Hs|].
  intros n1 nw1 L1 T1 R1 S1. unfold tm_part in T1. injection T1 as ET EI EW.
  apply (timer_pass_cover now (n_wakes n1) nw1 (n_rcv n1) (n_snd n1) _ (n_timers n1) [] [] nw1 n1).
  - split; [cbn [app]; rewrite app_nil_r; reflexivity|].
    split; [apply (wf_ids n); [rewrite ET; reflexivity|exact EI|exact Hwf]|]. split; [split; reflexivity|].
    split; [split; [apply Z.le_refl|intros t []]|]. split; [intros H; destruct (H eq_refl)|apply Z.le_refl].
  - intros D' N' nw' n' H'. apply post_done.
    pose proof (inv_done _ _ _ _ _ _ _ _ H') as Hcov. destruct H' as (_ & Hwf' & (R2 & S2) & (L2 & _) & _).
    replace (now + (nw' - now)) with nw' by lia. split; [|exact Hwf']. split; [lia|]. split; [|split].
    + intros key b Hg Hd. rewrite R2 in Hg. specialize (R1 key b Hg Hd). lia.
    + intros key b Hg Hd. rewrite S2 in Hg. specialize (S1 key b Hg Hd). lia.
    + rewrite <- EW. exact Hcov.
Qed.

(* T12.7: the sleep the job thread computes ends not later than the deadline of any session still open and any timer still
   registered; for a registration made during the pass a wake-up token is pending *)
Theorem job_iter_never_oversleeps n now :
  tnodup (n_rcv n) -> tnodup (n_snd n) -> timers_wf n ->
  match flat (job_iter n now) with
  | (n', _, RDone r) => r <= 5000000 /\ all_covered n n' (now + r)
  | (_, _, RRaise _) => True
  end.
Proof.
  intros Hr Hs Hwf. pose proof (job_iter_post n now Hr Hs Hwf) as H. unfold post in H.
  destruct (flat (job_iter n now)) as [[n' os] [r|e]]; [exact (proj1 H)|exact I].
Qed.

Example job_iter_example :
  let n := add_timer (add_timer (init_node 1 None None) 0 1000 (TApp 1) true) 0 5000 (TApp 2) false in
  timers_wf n /\ fres (job_iter n 1000) = RDone 1000 /\ fres (job_iter n 300) = RDone 700.
Proof. split; [|split; vm_compute; reflexivity]. apply add_timer_wf. apply add_timer_wf. split; [constructor|intros t []]. Qed.

(* the registrations stay well-formed over job iterations, add_timer and remove_timer: the premise of T12.7 holds in every
   state these operations reach from a node without timers *)
Theorem job_iter_keeps_wf n now : tnodup (n_rcv n) -> tnodup (n_snd n) -> timers_wf n ->
  match flat (job_iter n now) with (n', _, RDone _) => timers_wf n' | (_, _, RRaise _) => True end.
Proof.
  intros Hr Hs Hwf. pose proof (job_iter_post n now Hr Hs Hwf) as H. unfold post in H.
  destruct (flat (job_iter n now)) as [[n' os] [r|e]]; [exact (proj2 H)|exact I].
Qed.

Lemma remove_timer_wf n cb : timers_wf n -> timers_wf (remove_timer n cb).
Proof.
  intros [Hnd Hlt]. unfold timers_wf, remove_timer. cbn [n_timers n_nextid wake set_timers].
  set (victims := filter (fun t => tcb_eqb (tm_cb t) cb) (n_timers n)). clearbody victims.
  revert Hnd Hlt. generalize (n_timers n) as l. induction victims as [|v vs IH]; intros l Hnd Hlt; cbn [fold_left]; [split; assumption|].
  apply IH; [apply NoDup_ids_remove_first; exact Hnd|intros t Ht; apply Hlt; apply (In_remove_first v); exact Ht].
Qed.

Lemma init_wf maxp civ biv : timers_wf (init_node maxp civ biv).
Proof. split; [constructor|intros t []]. Qed.
