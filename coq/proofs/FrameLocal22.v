(* FrameLocal22.v — C02 (J1939-22): transfers with different (session number, source, destination) do not interact.
   Every FD transport frame touches at most ONE session: the receive session keyed by (session, SA, DA) of the frame
   (RTS, BAM, EOM status, DT) or the send session keyed by (session, DA, SA) (CTS, EOM acknowledgement, abort); every
   other receive and send session is exactly as before, whatever the frame contains. *)
From J1939 Require Import Base CodecGlue Model21 Model22.
From J1939.gen Require Import Codec Tp21Gen CaGen Tp22Gen.
From J1939P Require Import CodecProofs Flat MpgProofs PoolProofs Steps22.
Local Arguments Z.add : simpl never.
Local Arguments Z.sub : simpl never.
Local Arguments Z.mul : simpl never.

Definition touches22 (kr ks : option Z) (m m' : node22) : Prop :=
  (forall h, Some h <> kr -> tget (f_rcv m') h = tget (f_rcv m) h) /\
  (forall h, Some h <> ks -> tget (f_snd m') h = tget (f_snd m) h).

Lemma t22_refl kr ks m : touches22 kr ks m m.
Proof. split; intros; reflexivity. Qed.
Lemma t22_trans kr ks m1 m2 m3 : touches22 kr ks m1 m2 -> touches22 kr ks m2 m3 -> touches22 kr ks m1 m3.
Proof. intros [A B] [C D]. split; intros h Hh; [rewrite C, A|rewrite D, B]; auto. Qed.
Lemma t22_wake kr ks m : touches22 kr ks m (wake22 m).
Proof. split; intros; reflexivity. Qed.
Lemma t22_base kr ks m n : touches22 kr ks m (with_base m n).
Proof. split; intros; reflexivity. Qed.
Lemma t22_set_rcv h b ks m : touches22 (Some h) ks m (set_frcv m (tset (f_rcv m) h b)).
Proof. split; intros k Hk; cbn [f_rcv f_snd set_frcv]; [|reflexivity]. apply tget_tset_other. congruence. Qed.
Lemma t22_del_rcv h ks m : touches22 (Some h) ks m (set_frcv m (tdel (f_rcv m) h)).
Proof. split; intros k Hk; cbn [f_rcv f_snd set_frcv]; [|reflexivity]. apply tget_tdel_other. congruence. Qed.
Lemma t22_set_snd h b kr m : touches22 kr (Some h) m (set_fsnd m (tset (f_snd m) h b)).
Proof. split; intros k Hk; cbn [f_rcv f_snd set_fsnd]; [reflexivity|]. apply tget_tset_other. congruence. Qed.

Definition ends22 (P : node22 -> Prop) (a : act node22) : Prop := P (fnode22 a).
Lemma e22_done (P : node22 -> Prop) s r : P s -> ends22 P (Done s r). Proof. intros H; exact H. Qed.
Lemma e22_raise (P : node22 -> Prop) s e : P s -> ends22 P (Raise s e). Proof. intros H; exact H. Qed.
Lemma e22_emit (P : node22 -> Prop) s o k : ends22 P (k s) -> ends22 P (Emit s o k).
Proof. unfold ends22, fnode22. cbn [flat22]. destruct (flat22 (k s)) as [[s' os] r]. auto. Qed.
Lemma e22_notify (P : node22 -> Prop) prio pgn sa dest data m k : ends22 P (k m) -> ends22 P (notify_subscribers22 prio pgn sa dest data m k).
Proof. unfold ends22, fnode22. rewrite flat22_notify_subscribers. destruct (flat22 (k m)) as [[s os] r]. auto. Qed.

Theorem fd_cm_touches_one prio sa dest data now m :
  let s := tp22_cm_session_num data in
  ends22 (touches22 (Some (tp22_hash s sa dest)) (Some (tp22_hash s dest sa)) m) (process_tp_cm22 prio sa dest data now m).
Proof.
  intros s. unfold process_tp_cm22. fold s.
  destruct (length data <? 12)%nat; [apply e22_done, t22_refl|].
  destruct (_ =? tp22_ctl_RTS).
  { destruct (tmem (f_rcv m) _); apply e22_emit, e22_done; [apply t22_refl|].
    eapply t22_trans; [apply t22_set_rcv|apply t22_wake]. }
  destruct (_ =? tp22_ctl_CTS).
  { destruct (tget (f_snd m) _) as [b|]; [|apply e22_emit, e22_done, t22_refl].
    destruct (byte_at data 7 =? 0); apply e22_done; (eapply t22_trans; [apply t22_set_snd|apply t22_wake]). }
  destruct (_ =? tp22_ctl_EOM_STATUS).
  { destruct (tget (f_rcv m) _) as [b|]; [|apply e22_done, t22_refl].
    (* released, whether or not its contents matched the status frame *)
    assert (Hfin : ends22 (touches22 (Some (tp22_hash s sa dest)) (Some (tp22_hash s dest sa)) m)
                     (if tmem (f_rcv m) (tp22_hash s sa dest) then Done (set_frcv m (tdel (f_rcv m) (tp22_hash s sa dest))) 0 else Raise m E_Key))
      by (destruct (tmem (f_rcv m) _); [apply e22_done, t22_del_rcv|apply e22_raise, t22_refl]).
    destruct ((q_size b =? _) && _ && _); [apply e22_notify|]; (destruct (negb (dest =? addr_GLOBAL)); [apply e22_emit|]; exact Hfin). }
  destruct (_ =? tp22_ctl_EOM_ACK).
  { destruct (negb (tmem (f_snd m) _)); [apply e22_emit, e22_done, t22_refl|].
    apply e22_notify. destruct (tget (f_snd m) _) as [b|]; [|apply e22_raise, t22_refl].
    apply e22_done. eapply t22_trans; [apply t22_set_snd|apply t22_wake]. }
  destruct (_ =? tp22_ctl_BAM).
  { apply e22_done. destruct (tmem (f_rcv m) _).
    - eapply t22_trans; [apply t22_del_rcv|]. eapply t22_trans; [apply t22_set_rcv|apply t22_wake].
    - eapply t22_trans; [apply t22_set_rcv|apply t22_wake]. }
  destruct (_ =? tp22_ctl_ABORT).
  { destruct (tget (f_snd m) _) as [b|]; [|apply e22_done, t22_refl].
    destruct (t_state b =? tp22_st_WAITING_CTS); apply e22_done; [apply t22_set_snd|apply t22_refl]. }
  apply e22_raise, t22_refl.
Qed.

Theorem fd_dt_touches_one prio sa dest data now m :
  ends22 (touches22 (Some (tp22_hash (tp22_dt_session_num data) sa dest)) None m) (process_tp_dt22 prio sa dest data now m).
Proof.
  unfold ends22, fnode22.
  destruct (dt22_cases prio sa dest data now m) as [->|(b & Hlen & Hne & G & Hnext)]; [apply t22_refl|].
  destruct (dt22_accepted prio sa dest data now m b Hlen Hne G Hnext) as (bd & dl & m' & os & r & -> & Hr & Hs & _).
  split; intros h Hh; cbn [fst]; [rewrite Hr; apply tget_tset_other; congruence|rewrite Hs; reflexivity].
Qed.

Corollary fd_other_sessions_untouched_by_dt prio sa dest data now m s' sa' dest' :
  0 <= sa < 256 -> 0 <= dest < 256 -> 0 <= s' < 16 -> 0 <= sa' < 256 -> 0 <= dest' < 256 ->
  (s', sa', dest') <> (tp22_dt_session_num data, sa, dest) ->
  tget (f_rcv (fnode22 (process_tp_dt22 prio sa dest data now m))) (tp22_hash s' sa' dest') = tget (f_rcv m) (tp22_hash s' sa' dest') /\
  (forall h, tget (f_snd (fnode22 (process_tp_dt22 prio sa dest data now m))) h = tget (f_snd m) h).
Proof.
  intros H1 H2 H3 H4 H5 Hne. destruct (fd_dt_touches_one prio sa dest data now m) as [A B]. split; [|intros h; apply B; discriminate].
  apply A. intros [= E].
  assert (Hs : 0 <= tp22_dt_session_num data < 16) by (unfold tp22_dt_session_num; rewrite land_15; apply Z.mod_pos_bound; reflexivity).
  apply hash22_inj in E; try assumption. destruct E as (-> & -> & ->). apply Hne. reflexivity.
Qed.
