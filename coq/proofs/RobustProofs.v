(* RobustProofs.v — C07 (J1939-21): the job pass over ANY session tables makes progress: it hands on a
   wake-up time strictly in the future (no busy spin), whatever frames created those sessions.
   Section KeyStep, at the head of the file, says what one key's step of a pass does to a table; the progress theorems here
   and in RobustProofs22.v and the never-oversleeps theorems of NoOversleep.v / NoOversleep22.v are inductions over it. *)
From J1939 Require Import Base CodecGlue Model21.
From J1939.gen Require Import Codec Tp21Gen CaGen.
From J1939P Require Import CodecProofs Flat TimerProofs Steps21.

Definition good (a : act node) : Prop := match fres a with RDone r => 0 < r | RRaise _ => True end.

Lemma good_post a : good a <-> post (fun _ r => 0 < r) a.
Proof. unfold good, post, fres. destruct (flat a) as [[s os] [r|e]]; reflexivity. Qed.

Definition cfg_ok (n : node) : Prop :=
  0 < n_bam_iv n /\ (forall iv, n_cmdt_iv n = Some iv -> 0 < iv).

Lemma T3_pos : 0 < tp21_T3. Proof. reflexivity. Qed.

(* ---------------------------------------------------------------- one key of a pass, on the table alone
   What the step of a pass at [key] may do to its table t and to the wake-up time nw: the table changes at [key] only and
   keeps its keys distinct, the wake-up time has not grown and covers ([cov], e.g. "is not later than its deadline") whatever
   is now stored at [key].  The three lemmas are the three ways: the entry is left as it is, deleted, or stored. *)
Section KeyStep.
  Context {V : Type} (cov : Z -> V -> Prop) (key : Z) (t : tbl V) (nw : Z).

  Definition key_step (t1 : tbl V) (nw1 : Z) : Prop :=
    nw1 <= nw /\ (forall key', key <> key' -> tget t1 key' = tget t key') /\
    (tnodup t -> tnodup t1 /\ forall b1, tget t1 key = Some b1 -> cov nw1 b1).

  Lemma key_step_keep nw1 : nw1 <= nw -> (forall b, tget t key = Some b -> cov nw1 b) -> key_step t nw1.
  Proof. intros L C. split; [exact L|]. split; [reflexivity|]. intros N. split; [exact N|exact C]. Qed.

  Lemma key_step_del : key_step (tdel t key) nw.
  Proof.
    split; [apply Z.le_refl|]. split; [intros key'; apply tget_tdel_other|]. intros N. split; [apply tnodup_tdel, N|].
    intros b1. rewrite (tget_tdel_same _ _ N). discriminate.
  Qed.

  Lemma key_step_set t0 b' nw1 :
    nw1 <= nw -> (forall key', key <> key' -> tget t0 key' = tget t key') -> (tnodup t -> tnodup t0) -> cov nw1 b' ->
    key_step (tset t0 key b') nw1.
  Proof.
    intros L F N C. split; [exact L|]. split.
    - intros key' Hne. rewrite (tget_tset_other _ _ _ _ Hne). apply F, Hne.
    - intros Hn. split; [apply tnodup_tset, N, Hn|]. rewrite tget_tset_same. intros b1 [= <-]. exact C.
  Qed.

  (* what a whole pass over the distinct keys [ks] has done when it ends with table t' and wake-up time nw' *)
  Definition covers (ks : list Z) (t' : tbl V) (nw' : Z) : Prop :=
    nw' <= nw /\ (forall key', ~ In key' ks -> tget t' key' = tget t key') /\
    (forall key0 b, In key0 ks -> tget t' key0 = Some b -> cov nw' b).

  Lemma covers_nil : covers [] t nw.
  Proof. split; [apply Z.le_refl|]. split; [reflexivity|intros key0 b []]. Qed.

  (* a table that agrees with t off t's keys has no other keys, so after a pass over all of them every entry is covered *)
  Lemma covers_all t' nw' : covers (tkeys t) t' nw' -> forall key0 b, tget t' key0 = Some b -> cov nw' b.
  Proof.
    intros (_ & F & C) key0 b Hg. destruct (In_dec Z.eq_dec key0 (tkeys t)) as [Hi|Hni]; [exact (C key0 b Hi Hg)|].
    rewrite (F key0 Hni) in Hg. destruct (Hni (tget_in_keys _ _ _ Hg)).
  Qed.
End KeyStep.
Arguments covers_all {V cov t nw t' nw'} _ [key0 b] _.

(* the induction step of a pass over distinct keys: the step at [key] takes t to t1, the rest of the pass does not touch
   [key] again and only lowers the wake-up time *)
Lemma covers_cons {V} {cov : Z -> V -> Prop} {key t nw t1 nw1 ks t' nw'} :
  (forall nw nw' b, nw' <= nw -> cov nw b -> cov nw' b) ->
  key_step cov key t nw t1 nw1 -> tnodup t -> ~ In key ks -> covers cov t1 nw1 ks t' nw' -> covers cov t nw (key :: ks) t' nw'.
Proof.
  intros Hmono (L & F1 & C1) N Hni (L2 & F2 & C2). split; [exact (Z.le_trans _ _ _ L2 L)|]. split.
  - intros key' Hn. rewrite F2 by (intro Hin; apply Hn; right; exact Hin). apply F1. intros ->. apply Hn. left. reflexivity.
  - intros key0 b [<-|Hin] Hg; [|apply (C2 _ _ Hin Hg)]. rewrite (F2 key Hni) in Hg. apply (Hmono nw1 _ _ L2), (proj2 (C1 N)), Hg.
Qed.

(* a deadline of 0 means "none" in the session tables *)
Definition before {V} (dl : V -> Z) (nw : Z) (b : V) : Prop := dl b <> 0 -> nw <= dl b.

Lemma before_mono {V} (dl : V -> Z) nw nw' b : nw' <= nw -> before dl nw b -> before dl nw' b.
Proof. intros L H N. exact (Z.le_trans _ _ _ L (H N)). Qed.

(* ---------------------------------------------------------------- one key of a pass, from ANY state
   The pass goes on with the rest of the keys from a node that differs from n in one table only, as [key_step] says, and the
   wake-up time is still in the future if it was.  Both the progress theorems below and the no-oversleep theorems
   (NoOversleep.v) are inductions over the keys with these lemmas as the step. *)
Lemma rcv_pass_step P key ks now nw n k :
  (forall t1 nw1, key_step (before r_deadline) key (n_rcv n) nw t1 nw1 -> (now < nw -> now < nw1) ->
     post P (rcv_pass ks now nw1 (set_rcv n t1) k)) ->
  post P (rcv_pass (key :: ks) now nw n k).
Proof.
  intros Hk.
  assert (Hskip : forall nw1, nw1 <= nw -> (now < nw -> now < nw1) ->
            (forall b, tget (n_rcv n) key = Some b -> before r_deadline nw1 b) -> post P (rcv_pass ks now nw1 n k)).
  { intros nw1 L Pg C. rewrite <- (set_rcv_same n). apply Hk; [apply key_step_keep; assumption|exact Pg]. }
  destruct (tget (n_rcv n) key) as [b|] eqn:Hget.
  2:{ rewrite (rcv_pass_absent _ _ _ _ _ _ Hget). apply Hskip; [apply Z.le_refl|trivial|discriminate]. }
  destruct (Z.eq_dec (r_deadline b) 0) as [H0|H0].
  { rewrite (rcv_pass_idle _ _ _ _ _ _ b Hget H0). apply Hskip; [apply Z.le_refl|trivial|]. intros b0 [= <-] N0. contradiction. }
  destruct (Z_lt_le_dec now (r_deadline b)) as [Hlt|Hle].
  { rewrite (rcv_pass_wait _ _ _ _ _ _ b Hget H0 Hlt). pose proof (min_nw_le nw (r_deadline b)) as [L1 L2].
    apply Hskip; [exact L1|intros Hnw; apply min_nw_future; assumption|intros b0 [= <-] _; exact L2]. }
  apply (post_pre P _ _ _ (rcv_pass_due _ _ _ _ _ _ b Hget H0 Hle)). apply Hk; [apply key_step_del|trivial].
Qed.

(* the burst loop returns with the table changed at [key] only; if it was entered in SENDING_IN_CTS, the session is then
   either re-armed (T3 after the last packet of the window, the pacing interval after any other) or has nothing left *)
Lemma cts_burst_step P key now : forall fuel n k,
  (forall t1, (forall key', key <> key' -> tget t1 key' = tget (n_snd n) key') ->
     (tnodup (n_snd n) -> tnodup t1) ->
     (cfg_ok n -> forall b, tget (n_snd n) key = Some b -> s_state b = ST_SENDING_IN_CTS ->
      exists b1, tget t1 key = Some b1 /\
                 (now < s_deadline b1 \/ (s_state b1 = ST_SENDING_IN_CTS /\ s_num b1 <= s_next b1))) ->
     post P (k (set_snd n t1))) ->
  post P (cts_burst fuel key now n k).
Proof.
  induction fuel as [|f IH]; intros n k Hk; [apply post_raise|].
  destruct (tget (n_snd n) key) as [b|] eqn:Hget; [|rewrite (cts_burst_alias _ _ _ _ _ Hget); apply post_raise].
  destruct (Z_lt_le_dec (s_next b) (s_num b)) as [Hlt|Hle].
  2:{ rewrite (cts_burst_done _ _ _ _ _ b Hget Hle), <- (set_snd_same n). apply Hk; [reflexivity|trivial|].
      intros _ b0 [= <-] Hst. exists b. split; [exact Hget|right; split; [exact Hst|exact Hle]]. }
  destruct (s_waitcts b) as [w|] eqn:Hw; [|rewrite (cts_burst_nowindow _ _ _ _ _ b Hget Hlt Hw); apply post_raise].
  (* a packet goes out and the entry is rewritten; [Hput]: returning from there *)
  assert (Hput : forall b', (cfg_ok n -> now < s_deadline b') -> post P (k (set_snd n (tset (n_snd n) key b')))).
  { intros b' Hd. apply Hk; [intros key'; apply tget_tset_other|apply tnodup_tset|].
    intros Hc _ _ _. exists b'. split; [apply tget_tset_same|left; apply Hd, Hc]. }
  destruct (Z.eq_dec (s_next b) w) as [<-|Hne].
  { apply (post_pre P _ _ _ (cts_burst_last _ _ _ _ _ b Hget Hlt Hw)), Hput. intros _. cbn [upd_sbuf s_deadline].
    pose proof T3_pos. lia. }
  destruct (n_cmdt_iv n) as [iv|] eqn:Hiv.
  { apply (post_pre P _ _ _ (cts_burst_paced _ _ _ _ _ b Hget w iv Hlt Hw Hne Hiv)), Hput. intros [_ Hc].
    cbn [upd_sbuf s_deadline]. specialize (Hc iv Hiv). lia. }
  apply (post_pre P _ _ _ (cts_burst_next _ _ _ _ _ b Hget w Hlt Hw Hne Hiv)), IH.
  intros t1 F N Pg. apply (Hk t1).
  - intros key' Hne'. rewrite (F key' Hne'). apply tget_tset_other, Hne'.
  - intros Hn. apply N, tnodup_tset, Hn.
  - intros Hc b0 [= <-] Hst. exact (Pg Hc _ (tget_tset_same _ _ _) Hst).
Qed.

(* ... and the pass stores what the burst has left at [key] once more: parked with T3 if there is nothing left to send, else as
   it is.  Either way a session that was re-armed or has nothing left has its deadline after now *)
Lemma after_burst_step P key ks now nw k n1 :
  (forall b2, (forall b1, tget (n_snd n1) key = Some b1 ->
                 now < s_deadline b1 \/ (s_state b1 = ST_SENDING_IN_CTS /\ s_num b1 <= s_next b1) -> now < s_deadline b2) ->
     post P (snd_pass ks now (min_nw nw (s_deadline b2)) (set_snd n1 (tset (n_snd n1) key b2)) k)) ->
  post P (after_burst key ks now nw k n1).
Proof.
  intros Hk. destruct (tget (n_snd n1) key) as [b1|] eqn:G1; [|unfold after_burst; rewrite G1; apply post_raise].
  destruct (Z.eq_dec (s_state b1) ST_SENDING_IN_CTS) as [E1|E1]; [destruct (Z_lt_le_dec (s_next b1) (s_num b1)) as [E2|E2]|].
  - rewrite (after_burst_keep key ks now nw k n1 b1 G1 (or_intror E2)). apply Hk. intros b0 [= <-] [Hd|[_ Hn]]; [exact Hd|lia].
  - rewrite (after_burst_park key ks now nw k n1 b1 G1 E1 E2).
    apply (Hk (upd_sbuf b1 ST_WAITING_CTS (now + tp21_T3) (s_next b1))). intros _ _ _. cbn [upd_sbuf s_deadline]. pose proof T3_pos. lia.
  - rewrite (after_burst_keep key ks now nw k n1 b1 G1 (or_introl E1)). apply Hk. intros b0 [= <-] [Hd|[Hs _]]; [exact Hd|contradiction].
Qed.

Lemma snd_pass_step P key ks now nw n k :
  (forall t1 nw1, key_step (before s_deadline) key (n_snd n) nw t1 nw1 -> (cfg_ok n -> now < nw -> now < nw1) ->
     post P (snd_pass ks now nw1 (set_snd n t1) k)) ->
  post P (snd_pass (key :: ks) now nw n k).
Proof.
  intros Hk.
  assert (Hskip : forall nw1, nw1 <= nw -> (now < nw -> now < nw1) ->
            (forall b, tget (n_snd n) key = Some b -> before s_deadline nw1 b) -> post P (snd_pass ks now nw1 n k)).
  { intros nw1 L Pg C. rewrite <- (set_snd_same n). apply Hk; [apply key_step_keep; assumption|intros _; exact Pg]. }
  assert (Hdel : post P (snd_pass ks now nw (set_snd n (tdel (n_snd n) key)) k)) by (apply Hk; [apply key_step_del|trivial]).
  (* the entry rewritten with deadline dl, the wake-up time bounded by it *)
  assert (Hput : forall t0 b' dl, s_deadline b' = dl -> (cfg_ok n -> now < dl) ->
            (forall key', key <> key' -> tget t0 key' = tget (n_snd n) key') -> (tnodup (n_snd n) -> tnodup t0) ->
            post P (snd_pass ks now (min_nw nw dl) (set_snd n (tset t0 key b')) k)).
  { intros t0 b' dl Hd Hdl F N. pose proof (min_nw_le nw dl) as [L1 L2].
    apply Hk; [apply key_step_set; [exact L1|exact F|exact N|intros _; rewrite Hd; exact L2]|].
    intros Hc Hnw. apply min_nw_future; [exact Hnw|apply Hdl, Hc]. }
  destruct (tget (n_snd n) key) as [b|] eqn:Hget; [|rewrite (snd_pass_absent _ _ _ _ _ _ Hget); apply post_raise].
  destruct (Z.eq_dec (s_deadline b) 0) as [H0|H0].
  { rewrite (snd_pass_idle _ _ _ _ _ _ b Hget H0). apply Hskip; [apply Z.le_refl|trivial|]. intros b0 [= <-] N0. contradiction. }
  destruct (Z_lt_le_dec now (s_deadline b)) as [Hlt|Hle].
  { rewrite (snd_pass_wait _ _ _ _ _ _ b Hget H0 Hlt). pose proof (min_nw_le nw (s_deadline b)) as [L1 L2].
    apply Hskip; [exact L1|intros Hnw; apply min_nw_future; assumption|intros b0 [= <-] _; exact L2]. }
  destruct (Z.eq_dec (s_state b) ST_WAITING_CTS) as [S0|S0].
  { apply (post_pre P _ _ _ (snd_pass_due_waitcts _ _ _ _ _ _ b Hget H0 Hle S0)), Hdel. }
  destruct (Z.eq_dec (s_state b) ST_SENDING_IN_CTS) as [S1|S1].
  { rewrite (snd_pass_due_incts _ _ _ _ _ _ b Hget H0 Hle S1). apply cts_burst_step. intros t1 F N Pg.
    apply after_burst_step. intros b2 Hd. apply (Hput t1); [reflexivity| |exact F|exact N].
    intros Hc. destruct (Pg Hc b Hget S1) as (b1 & G1 & H). exact (Hd b1 G1 H). }
  destruct (Z.eq_dec (s_state b) ST_SENDING_BM) as [S2|S2].
  { destruct (Z_lt_le_dec (s_next b + 1) (s_num b)) as [Hn|Hn].
    - apply (post_pre P _ _ _ (snd_pass_due_bm _ _ _ _ _ _ b Hget H0 Hle S2 Hn)).
      apply (Hput (n_snd n)); [reflexivity|intros [Hc _]; lia|reflexivity|trivial].
    - apply (post_pre P _ _ _ (snd_pass_due_bm_last _ _ _ _ _ _ b Hget H0 Hle S2 Hn)), Hdel. }
  rewrite (snd_pass_due_other _ _ _ _ _ _ b Hget H0 Hle S0 S1 S2). exact Hdel.
Qed.

(* ---------------------------------------------------------------- progress *)
Lemma rcv_pass_progress P : forall keys now nw n k, now < nw ->
  (forall t' nw', now < nw' -> post P (k (set_rcv n t') nw')) -> post P (rcv_pass keys now nw n k).
Proof.
  induction keys as [|key ks IH]; intros now nw n k Hnw Hk.
  - rewrite <- (set_rcv_same n). apply Hk, Hnw.
  - apply rcv_pass_step. intros t1 nw1 _ Pg. apply IH; [apply Pg, Hnw|exact Hk].
Qed.

Lemma snd_pass_progress P : forall keys now nw n k, now < nw -> cfg_ok n ->
  (forall t' nw', now < nw' -> post P (k (set_snd n t') nw')) -> post P (snd_pass keys now nw n k).
Proof.
  induction keys as [|key ks IH]; intros now nw n k Hnw Hc Hk.
  - rewrite <- (set_snd_same n). apply Hk, Hnw.
  - apply snd_pass_step. intros t1 nw1 _ Pg. apply IH; [apply Pg; assumption|exact Hc|exact Hk].
Qed.

(* T07.3: one pass of the transport layer over ANY receive and send tables, at ANY instant, returns a
   wake-up time strictly later than that instant (or raises): iterating the job loop cannot spin *)
Theorem dll_job_progress n now k :
  cfg_ok n ->
  (forall n' nw', now < nw' -> good (k n' nw')) ->
  good (dll_job n now k).
Proof.
  intros Hcfg Hk. apply good_post. unfold dll_job.
  apply rcv_pass_progress; [lia|]. intros t1 nw1 Hnw1.
  apply snd_pass_progress; [exact Hnw1|exact Hcfg|]. intros t2 nw2 Hnw2. apply good_post, Hk, Hnw2.
Qed.

Corollary dll_job_never_spins n now :
  cfg_ok n -> good (dll_job n now (fun n' nw' => Done n' (nw' - now))).
Proof.
  intros Hcfg. apply dll_job_progress; [exact Hcfg|].
  intros n' nw' H. unfold good, fres. cbn. lia.
Qed.

(* [cfg_ok] constrains only the constructor's minimum_tp_rts_cts_dt_interval and minimum_tp_bam_dt_interval *)
Lemma init_cfg_ok maxp civ biv :
  (forall v, civ = Some v -> 0 < v) -> (forall v, biv = Some v -> 0 < v) -> cfg_ok (init_node maxp civ biv).
Proof.
  intros H1 H2. unfold cfg_ok, init_node. cbn. split; [|exact H1].
  destruct biv as [v|]; [apply H2; reflexivity|reflexivity].
Qed.

(* non-vacuity on the state of defect D7 (a CTS after the last packet: SENDING_IN_CTS, due, nothing left to send): the
   session is parked and the pass returns T3 *)
Example d7_state_progress :
  let b := {| s_pgn := 53248; s_prio := 6; s_size := 20; s_num := 3; s_data := repeat 1 20; s_state := ST_SENDING_IN_CTS;
              s_deadline := 5000; s_src := 16; s_dst := 32; s_next := 3; s_waitcts := Some 3; s_nb := 0 |} in
  let n := set_snd (init_node 8 None None) [(tp21_hash 16 32, b)] in
  fres (dll_job n 6000 (fun n' nw' => Done n' (nw' - 6000))) = RDone 1250000.
Proof. vm_compute. reflexivity. Qed.
