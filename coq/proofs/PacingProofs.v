(* PacingProofs.v — C09 (J1939-21): responder never over-grants; BAM pacing. (Flow-control obedience of the
   originator is proved in Tp21Orig: no_dt_without_cts, window_burst, cts_hold.) *)
From J1939 Require Import Base CodecGlue Model21.
From J1939.gen Require Import Codec Tp21Gen CaGen.
From J1939P Require Import CodecProofs Flat Steps21 Tp21Seg Tp21Resp Tp21Orig.

(* T09.2: the grants in the responder role theorem (T01.3: g0 in responder_rts, Z.min g0 (n - (k+1)) in [expect]) are
   bounded by the responder's own maximum, by the limit announced in the RTS and by what remains, and are >= 1 *)
Theorem first_grant_bounded maxp limit num :
  1 <= maxp -> 1 <= limit -> 1 <= num ->
  let g0 := Z.min maxp (Z.min limit num) in 1 <= g0 /\ g0 <= maxp /\ g0 <= limit /\ g0 <= num.
Proof. intros. cbv zeta. lia. Qed.

Theorem later_grants_bounded g0 num k :
  1 <= g0 -> 0 <= k -> k + 1 < num ->
  let g := Z.min g0 (num - (k + 1)) in 1 <= g /\ g <= g0 /\ g <= num - (k + 1).
Proof. intros. cbv zeta. lia. Qed.

(* what makes later_grants_bounded a statement about the responder: every CTS in Tp21Resp.expect has that count *)
Definition is_cb (o : out) : bool := match o with OCb _ _ _ _ _ => true | _ => false end.
Theorem expect_grants prio sa dest pgn p n0 g o : forall (cnt k : nat),
  In o (expect prio sa dest pgn p n0 g k cnt) ->
  (exists j, o = OTx (tp21_cts dest sa (Z.min g (Z.of_nat (npk (length p)) - (Z.of_nat j + 1))) (Z.of_nat j + 2) pgn) /\ (k <= j)%nat)
  \/ o = OTx (tp21_eom_ack dest sa (len p) (Z.of_nat (npk (length p))) pgn)
  \/ is_cb o = true.
Proof.
  induction cnt as [|c IH]; intros k H; [destruct H|].
  cbn [expect] in H. apply in_app_or in H. destruct H as [H|H].
  - destruct (Z.of_nat k + 1 =? Z.of_nat (npk (length p))).
    + destruct H as [<-|H]; [right; left; reflexivity|].
      right; right. unfold deliveries, deliveries_from in H. apply in_map_iff in H.
      destruct H as (s & <- & _). reflexivity.
    + destruct ((Z.of_nat k + 1) mod g =? 0); [|destruct H].
      destruct H as [<-|[]]. left. exists k. split; [reflexivity|lia].
  - destruct (IH (S k) H) as [(j & E & Hj)|[E|E]].
    + left. exists j. split; [exact E|lia].
    + right; left; exact E.
    + right; right; exact E.
Qed.

(* T09.3 BAM pacing, from the next two theorems: consecutive packets are at least the configured interval apart, and
   the next one goes out in the first pass at or after it (interval + scheduling latency) *)
Theorem bam_waits_for_interval key now nw n k b :
  tget (n_snd n) key = Some b -> s_state b = ST_SENDING_BM -> 0 <= now < s_deadline b ->
  snd_pass [key] now nw n k = k n (if nw >? s_deadline b then s_deadline b else nw).
Proof.
  intros Hget _ Hd. exact (snd_pass_wait key [] now nw n k b Hget ltac:(lia) ltac:(lia)).
Qed.

Theorem bam_sends_one_and_rearms key now nw n k b :
  tget (n_snd n) key = Some b -> s_state b = ST_SENDING_BM -> s_deadline b <> 0 -> s_deadline b <= now ->
  s_next b + 1 < s_num b ->
  flat (snd_pass [key] now nw n k) =
  let b' := upd_sbuf b ST_SENDING_BM (now + n_bam_iv n) (s_next b + 1) in
  let nw' := if nw >? now + n_bam_iv n then now + n_bam_iv n else nw in
  let '(s, os, r) := flat (k (set_snd n (tset (n_snd n) key b')) nw') in
  (s, OTx (tp21_dt (s_src b) (s_dst b) (dt_payload (s_data b) (s_next b))) :: os, r).
Proof.
  intros Hget Hst H0 Hle Hn. exact (snd_pass_due_bm key [] now nw n k b Hget H0 Hle Hst Hn).
Qed.

Theorem bam_sends_last key now nw n k b :
  tget (n_snd n) key = Some b -> s_state b = ST_SENDING_BM -> s_deadline b <> 0 -> s_deadline b <= now ->
  s_num b <= s_next b + 1 ->
  flat (snd_pass [key] now nw n k) =
  pre [OTx (tp21_dt (s_src b) (s_dst b) (dt_payload (s_data b) (s_next b)))] (flat (k (set_snd n (tdel (n_snd n) key)) nw)).
Proof.
  intros Hget Hst H0 Hle Hn. exact (snd_pass_due_bm_last key [] now nw n k b Hget H0 Hle Hst Hn).
Qed.
