(* Net21Timeout.v — C06 end to end (T06.10, T06.11): a peer that goes silent.  In the closed loop of two model nodes
   (Net21.v):
   (1) B does not answer at all (it does not accept the destination address): A's RTS stays unanswered, the network's clock
       advances by exactly T3 = 1.25 s, A's job thread then sends the Connection Abort (timeout) and releases the session;
       nothing was delivered anywhere and nothing is left;
   (2) A does not hear B's answers: B opens a receive session and answers with a CTS that A never sees; after exactly
       1.25 s both job threads give up in the same pass — A aborts its send session (T3), B aborts its receive session (T2) —
       nothing was delivered and nothing is left on either side. *)
From J1939 Require Import Base CodecGlue Model21.
From J1939.gen Require Import Codec Tp21Gen CaGen.
From J1939P Require Import CodecProofs Flat Steps21 Tp21Seg Tp21Resp Tp21Orig Net21 Net21Jobs Net21Proofs.
Local Arguments Z.add : simpl never.
Local Arguments Z.sub : simpl never.
Local Arguments Z.mul : simpl never.

Section Silent.
  Variables (prio sa dest dp pf : Z) (p : list Z) (t0 : Z) (A0 B0 : node).
  Hypothesis Hprio : 0 <= prio < 8.
  Hypothesis Hsa : 0 <= sa < 255.
  Hypothesis Hdest : 0 <= dest < 255.
  Hypothesis Hpf : 0 <= pf < 240.
  Hypothesis Hdp : 0 <= dp < 2.
  Hypothesis Hsize : 8 < len p <= 1785.
  Hypothesis Ht0 : 0 < t0.
  Let pv := dp * 65536 + pf * 256.
  Let num := Z.of_nat (npk (length p)).
  Let h := tp21_hash sa dest.
  Hypothesis HA : n_snd A0 = [] /\ n_rcv A0 = [] /\ n_timers A0 = [].
  Hypothesis HB : n_snd B0 = [] /\ n_rcv B0 = [] /\ n_timers B0 = [].

  Let rtsf : frame := tp21_rts sa dest prio pv (len p) num (Z.min (n_maxp A0) num).
  Let abortA : frame := tp21_abort sa dest tp21_reason_TIMEOUT pv.
  Let sb0 : sbuf := mk_sbuf pv prio (len p) num p ST_WAITING_CTS (t0 + tp21_T3) sa dest (Some 0).
  Let A1 : node := wake (set_snd A0 [(h, sb0)]).
  Let s0 : net := net_send (net0 A0 B0 t0) dp pf dest prio sa p.

  Lemma s0_eq : s0 = {| na := A1; nb := B0; qa := []; qb := [rtsf]; clk := t0; eva := []; evb := []; wab := [rtsf]; wba := [] |}.
  Proof.
    destruct HA as (As & Ar & At).
    unfold s0, net_send, net0. cbn [na nb qa qb clk eva evb wab wba].
    rewrite send_pgn_rts; try assumption; try lia.
    2:{ rewrite As. reflexivity. }
    replace (num_packets (len p)) with num by (unfold num, len; symmetry; apply num_packets_npk).
    cbn [txs flat_map evs filter app]. rewrite As. reflexivity.
  Qed.

  Lemma deaf n t f prio' dst src pf' : accepts n dst = false ->
    0 <= prio' < 8 -> 0 <= pf' < 240 -> 0 <= dst < 256 -> 0 <= src < 256 ->
    f_id f = mid_can_id_of prio' (pgn_value_of 0 pf' dst) src -> handle n t f = (n, []).
  Proof.
    intros Hacc H1 H2 H3 H4 Hid. unfold handle. rewrite Hid. rewrite notify_pdu1 by assumption. rewrite Hacc. reflexivity.
  Qed.

  Lemma A1_facts : n_rcv A1 = [] /\ n_timers A1 = [] /\ n_snd A1 = [(h, sb0)].
  Proof. destruct HA as (As & Ar & At). repeat split; assumption || reflexivity. Qed.

  Lemma A1_waits : flat (job_iter A1 t0) = (A1, [], RDone (Z.min (t0 + 5000000) (t0 + tp21_T3) - t0)).
  Proof.
    destruct A1_facts as (Hr & Ht & Hs).
    exact (job_snd_wait A1 h sb0 t0 Hr Hs Ht ltac:(cbn [sb0 mk_sbuf s_deadline]; unfold tp21_T3; lia)).
  Qed.
  Lemma A1_gives_up : let t := t0 + tp21_T3 in flat (job_iter A1 t) = (set_snd A1 [], [OTx abortA], RDone (t + 5000000 - t)).
  Proof.
    destruct A1_facts as (Hr & Ht & Hs).
    exact (job_snd_timeout A1 h sb0 _ Hr Hs Ht eq_refl ltac:(cbn [sb0 mk_sbuf s_deadline]; unfold tp21_T3; lia) (Z.le_refl _)).
  Qed.

  (* (1) of the head comment, T06.10 *)
  Theorem silent_responder : accepts B0 dest = false ->
    let s := steps 4 s0 in
    qa s = [] /\ qb s = [] /\ n_snd (na s) = [] /\ n_rcv (na s) = [] /\ nb s = B0 /\
    evb s = [] /\ eva s = [] /\ wab s = [rtsf; abortA] /\ wba s = [] /\ clk s = t0 + tp21_T3.
  Proof.
    intros Hacc. destruct HB as (Bs & Br & Bt). destruct A1_facts as (Hr & _).
    assert (D1 : handle B0 t0 rtsf = (B0, [])) by (apply (deaf B0 t0 rtsf prio dest sa 236 Hacc); try reflexivity; lia).
    assert (D2 : forall t, handle B0 t abortA = (B0, [])) by (intros t; apply (deaf B0 t abortA 7 dest sa 236 Hacc); try reflexivity; lia).
    rewrite s0_eq. cbn [steps].
    (* the four steps: B ignores the RTS; nobody has anything to do and the clock moves to A's deadline; A's job thread gives
       up; B ignores the abort *)
    rewrite (step_b D1). cbn [txs flat_map evs filter app].
    rewrite (step_idle_quiet A1_waits (job_idle B0 t0 Br Bs Bt) eq_refl eq_refl).
    replace (Z.max 0 _) with tp21_T3 by (unfold tp21_T3; lia).
    rewrite (step_idle_tx A1_gives_up (job_idle B0 _ Br Bs Bt)) by discriminate.
    cbn [txs flat_map evs filter app].
    rewrite (step_b (D2 _)). cbn [txs flat_map evs filter app].
    cbn [na nb qa qb clk eva evb wab wba n_snd n_rcv set_snd]. repeat split; try reflexivity. exact Hr.
  Qed.

  (* (2) of the head comment, T06.11 *)
  Let g0 : Z := Z.min (n_maxp B0) (Z.min (Z.min (n_maxp A0) num) num).
  Let rb0 : rbuf :=
    {| r_pgn := pv; r_size := len p; r_num := num; r_next := g0; r_maxrec := Some g0; r_data := [];
       r_deadline := t0 + tp21_T2; r_src := sa; r_dst := dest |}.
  Let B1 : node := wake (set_rcv B0 [(h, rb0)]).
  Let ctsf : frame := tp21_cts dest sa g0 1 pv.
  Let abortB : frame := tp21_abort dest sa tp21_reason_TIMEOUT pv.

  Lemma abort_ignored b c : accepts b dest = true -> n_snd b = [] -> handle b c abortA = (b, []).
  Proof.
    intros Hacc Hs. rewrite (handle_cm b c abortA 7 sa dest eq_refl) by (assumption || lia).
    rewrite cm_abort by (apply le_n || reflexivity). cbv zeta. rewrite Hs. reflexivity.
  Qed.

  Theorem unheard_responder : accepts A0 sa = false -> accepts B0 dest = true -> 1 <= n_maxp A0 -> 1 <= n_maxp B0 ->
    let s := steps 6 s0 in
    qa s = [] /\ qb s = [] /\ n_snd (na s) = [] /\ n_rcv (na s) = [] /\ n_snd (nb s) = [] /\ n_rcv (nb s) = [] /\
    evb s = [] /\ eva s = [] /\ wab s = [rtsf; abortA] /\ wba s = [ctsf; abortB] /\ clk s = t0 + 1250000.
  Proof.
    intros HaccA HaccB HmA HmB. destruct HB as (Bs & Br & Bt). destruct A1_facts as (Hr & _).
    pose proof (npk_range p Hsize : 2 <= num <= 255) as Hnum.
    assert (DA : forall a t f, accepts a sa = false -> f_id f = mid_can_id_of 7 (pgn_value_of 0 236 sa) dest -> handle a t f = (a, []))
      by (intros a t f Ha Hid; apply (deaf a t f 7 sa dest 236 Ha); try exact Hid; lia).
    assert (HhB : handle B0 t0 rtsf = (B1, [OTx ctsf])).
    { unfold handle, rtsf.
      rewrite (responder_rts prio sa dest pv (Z.min (n_maxp A0) num) p t0);
        first [assumption | lia | (unfold pv; lia) | (rewrite Br; reflexivity)]. }
    rewrite s0_eq. cbn [steps].
    (* the six steps: B answers the RTS; A does not hear the CTS; both wait and the clock moves on by 1.25 s; both give up in
       the same pass, since T2 = T3; the two aborts cross (two steps) and neither finds anything to end *)
    rewrite (step_b HhB). cbn [txs flat_map evs filter app].
    rewrite (step_a (DA A1 t0 ctsf HaccA eq_refl)). cbn [txs flat_map evs filter app].
    rewrite (step_idle_quiet A1_waits (job_rcv_wait B1 h rb0 t0 eq_refl Bs Bt ltac:(cbn [rb0 r_deadline]; unfold tp21_T2; lia))
                             eq_refl eq_refl).
    cbn [rb0 r_deadline]. replace (Z.max 0 _) with tp21_T3 by (unfold tp21_T3, tp21_T2; lia).
    rewrite (step_idle_tx A1_gives_up
               (job_rcv_timeout B1 h rb0 _ eq_refl Bs Bt ltac:(cbn [rb0 r_deadline]; unfold tp21_T2; lia)
                                (Z.le_refl _) ltac:(cbn [rb0 r_dst]; unfold addr_GLOBAL; lia)))
      by discriminate.
    cbn [txs flat_map evs filter app rb0 r_src r_dst r_pgn].
    rewrite (step_b (abort_ignored (set_rcv B1 []) _ HaccB Bs)). cbn [txs flat_map evs filter app].
    rewrite (step_a (DA (set_snd A1 []) _ abortB HaccA eq_refl)).
    cbn [txs flat_map evs filter app na nb qa qb clk eva evb wab wba n_snd n_rcv set_snd set_rcv wake].
    repeat split; try reflexivity; assumption.
  Qed.
End Silent.
