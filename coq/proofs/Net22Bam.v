(* Net22Bam.v — C02 end to end, FD broadcast: in the closed loop of two FD model nodes (Net22.v) a BAM transfer of any payload of
   more than 60 bytes to the global address delivers exactly that payload, once, to the listeners on B; the clock of the
   network advances by the originator's segment interval between the frames (shorter than the listener's T1); afterwards
   nothing is queued, no session is left and the broadcast session number is back in the pool. *)
From J1939 Require Import Base CodecGlue Model21 Model22.
From J1939.gen Require Import Codec Tp21Gen CaGen Tp22Gen.
From J1939P Require Import CodecProofs Flat MpgProofs PoolProofs Steps22 TimeoutProofs22 Tp21Seg Tp21Resp Tp21Orig Tp22Proofs Tp22Resp Tp22Orig Net22Jobs Net21 NetCommon Net21Proofs Net22 Net22Proofs.
Local Arguments Z.add : simpl never.
Local Arguments Z.sub : simpl never.
Local Arguments Z.mul : simpl never.

(* the frames A puts on the wire, each with the network's time at the step that emitted it *)
Definition newtx22 (s s' : net22) : list (Z * frame) := map (fun f => (fclk s, f)) (skipn (length (wab2 s)) (wab2 s')).
Fixpoint tlog22 (j : nat) (s : net22) : list (Z * frame) :=
  match j with O => [] | S j' => newtx22 s (step22 s) ++ tlog22 j' (step22 s) end.
Lemma newtx22_snoc s s' l : wab2 s' = wab2 s ++ l -> newtx22 s s' = map (fun f => (fclk s, f)) l.
Proof. intros E. unfold newtx22. rewrite E, skipn_app, skipn_all, Nat.sub_diag. reflexivity. Qed.
Lemma newtx22_same s s' : wab2 s' = wab2 s -> newtx22 s s' = [].
Proof. intros E. apply (newtx22_snoc s s' []). rewrite app_nil_r. exact E. Qed.

(* [treaches22 Q s L]: some number of steps from s ends in Q, and L is what A sent on the way *)
Definition treaches22 : (net22 -> Prop) -> net22 -> list (Z * frame) -> Prop := treaches steps22 tlog22.
Lemma treaches22_step Q s L : treaches22 Q (step22 s) L -> treaches22 Q s (newtx22 s (step22 s) ++ L).
Proof. exact (treaches_step step22 (fun s => newtx22 s (step22 s)) steps22 tlog22 (fun _ _ => eq_refl) (fun _ _ => eq_refl) Q s L). Qed.
Lemma treaches22_tx Q s s' x L : step22 s = s' -> wab2 s' = wab2 s ++ [x] -> treaches22 Q s' L -> treaches22 Q s ((fclk s, x) :: L).
Proof. intros <- E H. apply treaches22_step in H. rewrite (newtx22_snoc s _ [x] E) in H. exact H. Qed.
Lemma treaches22_quiet Q s s' L : step22 s = s' -> wab2 s' = wab2 s -> treaches22 Q s' L -> treaches22 Q s L.
Proof. intros <- E H. apply treaches22_step in H. rewrite (newtx22_same s _ E) in H. exact H. Qed.

(* the PGN a broadcast is delivered under: a PDU1 group has no group extension, its PS byte being the destination *)
Definition bam_pgn22 (dp pf ps : Z) : Z := if pf <? 240 then dp * 65536 + pf * 256 else dp * 65536 + pf * 256 + ps.
Lemma bam_pgn22_pdu1 dp pf ps : pf < 240 -> bam_pgn22 dp pf ps = dp * 65536 + pf * 256.
Proof. intros H. unfold bam_pgn22. destruct (Z.ltb_spec pf 240); [reflexivity|lia]. Qed.

Section BamLoop22.
  Variables (prio sa dp pf ps : Z) (p : list Z) (t0 : Z) (A0 B0 : node22).
  Hypothesis Hprio : 0 <= prio < 8.
  Hypothesis Hsa : 0 <= sa < 255.
  (* a PDU1 group sent to the global address, or a PDU2 group (a broadcast whatever its group extension) *)
  Hypothesis Hkind : (0 <= pf < 240 /\ ps = 255) \/ (240 <= pf < 256 /\ 0 <= ps < 256).
  Hypothesis Hdp : 0 <= dp < 2.
  Hypothesis Hsize : 60 < len p < 16777216.
  Hypothesis Ht0 : 0 < t0.
  Let pv := bam_pgn22 dp pf ps.
  Let ns := ((length p + 59) / 60)%nat.
  Let nseg := Z.of_nat ns.
  Let G := addr_GLOBAL.
  Let h := tp22_hash 0 sa G.
  Let iv := f_bam_iv A0.
  Hypothesis Hiv : 0 < iv < tp22_T1.
  Hypothesis Hiv2 : 2 * iv < tp22_T1.
  Hypothesis HA : f_snd A0 = [] /\ f_rcv A0 = [] /\ f_mpg A0 = [] /\ n_timers (base A0) = [] /\ f_bam A0 = repeat true tp22_pool_bam.
  Hypothesis HB : f_snd B0 = [] /\ f_rcv B0 = [] /\ f_mpg B0 = [] /\ n_timers (base B0) = [].

  Lemma bpv_range : 0 <= pv < 262144.
  Proof. unfold pv, bam_pgn22. destruct (pf <? 240); lia. Qed.
  Lemma rows_all : firstn (60 * ns) p = p.
  Proof. apply firstn_all2. exact (proj2 (proj2 (ns_range p Hsize))). Qed.

  (* A's session after k rows: it goes on sending while rows are left, then owes the end-of-message status *)
  Definition stA (k : nat) : Z := if Z.of_nat k <? nseg then tp22_st_SENDING_BAM else tp22_st_SENDING_EOM_STATUS.
  Definition sbm (dl : Z) (k : nat) (d : list (list Z)) : sbuf22 :=
    {| t_pgn := pv; t_prio := prio; t_session := 0; t_size := len p; t_nseg := nseg; t_data := d; t_state := stA k;
       t_deadline := dl; t_src := sa; t_dst := G; t_next := Z.of_nat k; t_waitcts := None; t_nb := 0 |}.
  Definition bam22 : frame := tp22_bam prio sa 0 pv (len p) nseg.
  Definition bpool1 : list bool := false :: repeat true 3.

  Lemma stA_sending k : (k < ns)%nat -> stA k = tp22_st_SENDING_BAM.
  Proof. intros H. unfold stA. rewrite (proj2 (Z.ltb_lt _ _)) by (unfold nseg; lia). reflexivity. Qed.

  Lemma send_pgn22_bam a now : f_snd a = [] -> f_bam a = repeat true tp22_pool_bam ->
    flat22 (send_pgn22 a now dp pf ps prio sa p 0 ff_FEFF) =
    (wake22 (set_fsnd (set_fbam a bpool1) [(h, sbm (now + f_bam_iv a) 0 (segments p))]), [OTx bam22], RDone 1).
  Proof.
    intros Hs Hb. pose proof (ns_range p Hsize) as (Hns & _).
    rewrite send_pgn22_long by (unfold tp22_TP; lia). cbv zeta. rewrite pgn_is_pdu2_of_leb by lia.
    assert ((ps =? addr_GLOBAL) || (240 <=? pf) = true) as -> by (unfold addr_GLOBAL; lia).
    rewrite Hb. cbn [tp22_pool_bam repeat pool_get]. rewrite (nseg_model p).
    assert (Hpv : pgn_value dp pf (if pgn_is_pdu1 pf then 0 else ps) = pv)
      by (rewrite pgn_is_pdu1_ltb by lia; unfold pv, bam_pgn22; destruct (pf <? 240); rewrite pgn_value_arith by lia; lia).
    rewrite Hpv. cbn [flat22 f_snd set_fbam f_bam_iv]. rewrite Hs. unfold sbm. rewrite stA_sending by (fold ns in Hns; lia). reflexivity.
  Qed.

  Definition rbm (dl nx : Z) (d : list Z) : rbuf22 :=
    {| q_pgn := pv; q_session := 0; q_size := len p; q_nseg := nseg; q_next := nx; q_border := None; q_maxrec := None;
       q_data := d; q_deadline := dl; q_src := sa; q_dst := G |}.

  (* the frame of row k (0-based), as the model's own builder makes it *)
  Definition dtfb (k : nat) : frame :=
    match dt_frame sa G 0 (Z.of_nat k + 1) (row p k) with Some (fr, _) => fr | None => bam22 end.
  Lemma dtfb_some k : (k < ns)%nat -> exists seg' pad, dt_frame sa G 0 (Z.of_nat k + 1) (row p k) = Some (dtfb k, seg') /\
    f_id (dtfb k) = tp22_dt_id sa G /\ f_data (dtfb k) = tp22_dt_header 0 (Z.of_nat k + 1) 0 ++ row p k ++ pad /\
    ((S k < ns)%nat -> pad = []).
  Proof.
    intros Hk. pose proof (ns_range p Hsize) as (_ & Hlo & _). fold ns in Hlo.
    destruct (row_frame sa G p k bam22) as (fr & seg' & pad & E & <- & Hid & Hdata & Hpad).
    exists seg', pad. repeat split; try assumption. intros Hlt. apply Hpad. lia.
  Qed.
  Definition dtfsb (k m : nat) : list frame := map dtfb (seq k m).
  Lemma dtfsb_snoc k : dtfsb 0 k ++ [dtfb k] = dtfsb 0 (S k).
  Proof. unfold dtfsb. rewrite seq_S, map_app. reflexivity. Qed.
  Definition eomsb : frame := tp22_eom_status sa G 0 (len p) nseg pv.
  Definition bdelivered22 : list out := deliveries (base B0) 7 pv sa G p.

  (* the listener B: what stays as it is while the transfer runs, and its session after kb rows.  benvB22 names no field
     that set_frcv or wake22 change, so it passes from b to wake22 (set_frcv b l) by conversion; likewise benvA22 and set_fsnd *)
  Definition benvB22 (b : node22) : Prop :=
    f_snd b = [] /\ f_mpg b = [] /\ n_timers (base b) = [] /\ n_subs (base b) = n_subs (base B0) /\ n_cas (base b) = n_cas (base B0).
  Definition SB (b : node22) (dl : Z) (kb : nat) : Prop :=
    benvB22 b /\ f_rcv b = [(h, rbm dl (Z.of_nat kb + 1) (firstn (60 * kb) p))].

  Lemma hB22_bam b c : f_rcv b = [] -> handle22 b c bam22 = (wake22 (set_frcv b [(h, rbm (c + tp22_T1) 1 [])]), []).
  Proof.
    intros Hr. pose proof (nseg_range p Hsize) as Hn. pose proof bpv_range as Hpv.
    unfold bam22, tp22_bam. rewrite handle22_cm by (try reflexivity; lia).
    destruct (cm22_fields sa 255 4 0 (len p) nseg 255 0 pv prio) as (L & C & S & Z1 & N & _ & _ & P); try (fold ns nseg in Hn; lia).
    rewrite bam22_flat by (split; [rewrite L; apply le_n|exact C]). rewrite S, Z1, N, P, Hr. reflexivity.
  Qed.

  (* a data frame: the row is appended; the last one completes the payload and leaves the deadline as it is *)
  Lemma hB22_bdt b c dl (k : nat) : SB b dl k -> (k < ns)%nat ->
    exists b', SB b' (if (S k =? ns)%nat then dl else c + tp22_T1) (S k) /\ handle22 b c (dtfb k) = (b', []).
  Proof.
    intros (Eb & Hr) Hk. pose proof (ns_range p Hsize) as (_ & Hlo & Hhi). pose proof (nseg_range p Hsize) as Hn. fold ns in Hlo, Hhi, Hn.
    destruct (dtfb_some k Hk) as (_ & pad & _ & Hid & Hdata & Hpad).
    rewrite (handle22_dt b c (dtfb k) sa G) by (try assumption; try reflexivity; unfold G, addr_GLOBAL; lia). rewrite Hdata.
    destruct (dt_hdr_fields 0 (Z.of_nat k + 1) (row p k ++ pad)) as (Es & En); [lia|lia|].
    assert (Hlen : (4 < length (tp22_dt_header 0 (Z.of_nat k + 1) 0 ++ row p k ++ pad))%nat).
    { rewrite !app_length. unfold row. rewrite firstn_length, skipn_length. cbn [tp22_dt_header length]. lia. }
    rewrite (dt22_step 7 sa G c 0 (Z.of_nat k + 1) _ b _ Hlen Es En ltac:(lia) ltac:(rewrite Hr; apply tget_single) eq_refl).
    change (skipn 4 (tp22_dt_header 0 (Z.of_nat k + 1) 0 ++ row p k ++ pad)) with (row p k ++ pad). change (G =? addr_GLOBAL) with true.
    cbn [rbm q_data q_size q_border q_deadline]. rewrite Hr, !tset_single, app_assoc.
    replace (Z.of_nat k + 1 + 1) with (Z.of_nat (S k) + 1) by lia.
    destruct (Nat.eqb_spec (S k) ns) as [Elast|Nlast].
    - rewrite (row_last p k), (proj2 (Z.leb_le _ _) (len_app_le p pad)), firstn_len_app by lia. eexists. split; [|reflexivity].
      split; [exact Eb|]. rewrite Elast, rows_all. reflexivity.
    - rewrite (Hpad ltac:(lia)), app_nil_r, (firstn_row p k) by lia.
      assert ((len p <=? len (firstn (60 * S k) p)) = false) as -> by (unfold len; rewrite firstn_length; lia).
      eexists. split; [|reflexivity]. split; [exact Eb|reflexivity].
  Qed.

  Lemma hB22_beoms b c dl : SB b dl ns -> handle22 b c eomsb = (set_frcv b [], bdelivered22).
  Proof.
    intros ((_ & _ & _ & Es & Ec) & Hr). pose proof (nseg_range p Hsize) as Hn. pose proof bpv_range as Hpv. rewrite rows_all in Hr.
    unfold eomsb, tp22_eom_status. rewrite handle22_cm by (try reflexivity; unfold G, addr_GLOBAL; lia).
    destruct (cm22_fields sa G 2 0 (len p) nseg 0 0 pv 7) as (L & C & S & Z1 & N & _); try (unfold G, addr_GLOBAL; fold ns nseg in Hn; lia).
    rewrite (eom_status_flat 7 sa G _ c b (rbm dl (Z.of_nat ns + 1) p));
      [|split; [rewrite L; apply le_n|exact C]|rewrite S, Hr; apply tget_single].
    rewrite S, Z1, N, Hr, tdel_single. cbn [rbm q_size q_nseg q_data q_pgn]. rewrite !Z.eqb_refl.
    unfold bdelivered22. rewrite (deliveries_env (base B0) (base b)) by assumption. rewrite app_nil_r. reflexivity.
  Qed.

  (* the originator A: what stays as it is, and its session with k rows sent, the rows from k on still as segmented *)
  Definition benvA22 (a : node22) : Prop :=
    f_rcv a = [] /\ f_mpg a = [] /\ n_timers (base a) = [] /\ f_bam_iv a = iv /\ f_bam a = bpool1.
  Definition SA (a : node22) (dl : Z) (k : nat) : Prop :=
    benvA22 a /\ exists d, f_snd a = [(h, sbm dl k d)] /\ rows_ok p d k.

  Lemma jobA22_wait a c dl k : SA a dl k -> 0 < c < dl -> dl < c + 5000000 ->
    flat22 (job_iter22 a c) = (a, [], RDone (dl - c)).
  Proof.
    intros ((Ar & Am & At & _) & d & Hs & _) Hc Hd. rewrite (job22_snd_wait a c h _ Ar Am At Hs), minw_deadline by (cbn [sbm t_deadline]; lia). reflexivity.
  Qed.
  Lemma jobB22_wait b c dl kb : SB b dl kb -> 0 < c < dl -> dl < c + 5000000 ->
    flat22 (job_iter22 b c) = (b, [], RDone (dl - c)).
  Proof.
    intros ((Bs & Bm & Bt & _) & Hr) Hc Hd. rewrite (job22_rcv_wait b c h _ Hr Bm Bs Bt), minw_deadline by (cbn [rbm q_deadline]; lia). reflexivity.
  Qed.

  (* one data frame per pass, the next one an interval later *)
  Lemma jobA22_send a c dl (k : nat) : SA a dl k -> (k < ns)%nat -> 0 < dl <= c ->
    exists a' r, SA a' (c + iv) (S k) /\ flat22 (job_iter22 a c) = (a', [OTx (dtfb k)], RDone r).
  Proof.
    intros ((Ar & Am & At & Ai & Ap) & d & Hs & Hrows) Hk Hd. pose proof (ns_range p Hsize) as (_ & Hlo & Hhi). fold ns in Hlo, Hhi.
    destruct (dtfb_some k Hk) as (seg' & pad & Hfr & _).
    rewrite (job22_snd a c h _ Ar Am Hs).
    rewrite (fd_bam_sends_one_and_rearms h c (c + 5000000) a (job22_end c) (sbm dl k d) (row p k) (dtfb k) seg');
      [|rewrite Hs; apply tget_single|exact (stA_sending k Hk)|cbn [sbm t_deadline]; lia|cbn [sbm t_deadline]; lia
       |cbn [sbm t_data t_next]; rewrite py_nth_nat, (Hrows k (le_n k)); apply nth_segments; lia|exact Hfr].
    rewrite job22_end_done by exact At. eexists _, _. split; [|reflexivity].
    split; [repeat split; assumption|]. cbn [f_snd set_fsnd]. rewrite Hs, tset_single.
    cbn [sbm with_tdata upd_t t_pgn t_prio t_session t_size t_nseg t_data t_state t_deadline t_src t_dst t_next t_waitcts t_nb].
    rewrite py_set_nat, Ai, Z.add_1_r, <- Nat2Z.inj_succ.
    exists (upd_nth d k seg'). split; [reflexivity|apply rows_ok_upd, Hrows].
  Qed.

  (* all rows are out: the status leaves, the session is released and its number is back in the pool *)
  Lemma jobA22_eoms a c dl : SA a dl ns -> 0 < dl <= c ->
    flat22 (job_iter22 a c) = (set_fbam (set_fsnd a []) (repeat true tp22_pool_bam), [OTx eomsb], RDone (c + 5000000 - c)).
  Proof.
    intros ((Ar & Am & At & Ai & Ap) & d & Hs & _) Hd. rewrite (job22_snd a c h _ Ar Am Hs).
    destruct (snd22_eom_status_releases h c (c + 5000000) a (job22_end c) (sbm dl ns d))
      as (a' & Hret & ->); [rewrite Hs; apply tget_single|cbn [sbm t_state]; unfold stA; rewrite Z.ltb_irrefl; reflexivity
                           |cbn [sbm t_deadline]; lia|cbn [sbm t_deadline]; lia|exact (first_in_pool a (sbm dl ns d) true _ eq_refl eq_refl Ap)|].
    rewrite (first_returned _ _ _ true _ Hret eq_refl eq_refl Ap), job22_end_done by exact At. rewrite Hs, tdel_single. reflexivity.
  Qed.

  (* the network while the transfer runs: at time c the frames q wait for B, w went over the wire after the announcement;
     A's listeners have heard nothing and B has sent nothing *)
  Definition run (a b : node22) (c : Z) (q w : list frame) : net22 :=
    {| fa := a; fb := b; pa := []; pb := q; fclk := c; eva2 := []; evb2 := []; wab2 := bam22 :: w; wba2 := [] |}.

  (* both sides wait: the clock moves on to A's deadline *)
  Lemma T_wait a b c dlA k dlB kb w : SA a dlA k -> SB b dlB kb -> 0 < c < dlA -> dlA < dlB -> dlB < c + 5000000 ->
    step22 (run a b c [] w) = run a b dlA [] w.
  Proof.
    intros Ha Hb Hc Hd He. rewrite (step22_idle (run a b c [] w)) by reflexivity. cbn [run fa fb fclk eva2 evb2 wab2 wba2].
    rewrite (jobA22_wait a c dlA k Ha) by lia. rewrite (jobB22_wait b c dlB kb Hb) by lia.
    cbn [txs flat_map evs filter sleep_of andb app]. rewrite !Z.eqb_refl, app_nil_r. cbn [andb]. unfold run. f_equal. lia.
  Qed.
  (* A's job thread puts a frame on the bus while B waits: the clock stands still *)
  Lemma T_tx a b c dlB kb w a' x r : SB b dlB kb -> 0 < c < dlB -> dlB < c + 5000000 ->
    flat22 (job_iter22 a c) = (a', [OTx x], r) -> step22 (run a b c [] w) = run a' b c [x] (w ++ [x]).
  Proof.
    intros Hb Hc Hd Ej.
    exact (step22_sends (run a b c [] w) a' [OTx x] r b [] _ eq_refl eq_refl Ej (jobB22_wait b c dlB kb Hb Hc Hd) ltac:(discriminate)).
  Qed.
  Lemma T_rx a b c f q w b' : handle22 b c f = (b', []) -> step22 (run a b c (f :: q) w) = run a b' c q w.
  Proof. intros E. rewrite (step22_b (run a b c (f :: q) w) f q) by reflexivity. cbn [run fb fclk]. rewrite E. reflexivity. Qed.
  Lemma T_status a b c dlB w : SB b dlB ns -> step22 (run a b c [eomsb] w) =
    {| fa := a; fb := set_frcv b []; pa := []; pb := []; fclk := c; eva2 := []; evb2 := bdelivered22; wab2 := bam22 :: w; wba2 := [] |}.
  Proof.
    intros Hb. rewrite (step22_b (run a b c [eomsb] w) eomsb []) by reflexivity. cbn [run fb fclk].
    rewrite (hB22_beoms b c dlB Hb). unfold bdelivered22. rewrite txs_deliveries, evs_deliveries. reflexivity.
  Qed.

  Definition BmDone (s : net22) : Prop :=
    pa s = [] /\ pb s = [] /\ f_snd (fa s) = [] /\ f_rcv (fa s) = [] /\ f_snd (fb s) = [] /\ f_rcv (fb s) = [] /\
    f_bam (fa s) = repeat true tp22_pool_bam /\ evb2 s = bdelivered22 /\ wab2 s = bam22 :: dtfsb 0 ns ++ [eomsb].

  (* ---- the run: frame k leaves at at_time22 (S k), the status one interval after the last frame *)
  Definition at_time22 (k : nat) : Z := t0 + Z.of_nat k * iv.
  Lemma at_time22_0 : at_time22 0 = t0.
  Proof. unfold at_time22. lia. Qed.
  Lemma at_time22_S k : at_time22 k + iv = at_time22 (S k).
  Proof. unfold at_time22. rewrite Nat2Z.inj_succ. ring. Qed.
  Lemma at_time22_pos k : 0 < at_time22 k.
  Proof. unfold at_time22. nia. Qed.
  Definition tail_log (k : nat) : list (Z * frame) := map (fun i => (at_time22 (S i), dtfb i)) (seq k (ns - k)) ++ [(at_time22 (S ns), eomsb)].
  Lemma tail_log_S k : (k < ns)%nat -> tail_log k = (at_time22 (S k), dtfb k) :: tail_log (S k).
  Proof. intros H. unfold tail_log. replace (ns - k)%nat with (S (ns - S k)) by lia. reflexivity. Qed.

  (* after the last row: one more interval, then the status leaves and B delivers *)
  Lemma last_round a b dlB : SA a (at_time22 (S ns)) ns -> SB b dlB ns -> at_time22 (S ns) < dlB < at_time22 ns + 5000000 ->
    treaches22 BmDone (run a b (at_time22 ns) [] (dtfsb 0 ns)) [(at_time22 (S ns), eomsb)].
  Proof.
    intros Ha Hb Hd. pose proof (at_time22_pos ns) as Htm. pose proof (at_time22_S ns) as Etm.
    apply (treaches22_quiet _ _ _ _ (T_wait a b (at_time22 ns) _ ns _ ns _ Ha Hb ltac:(lia) ltac:(lia) ltac:(lia)) eq_refl).
    apply (treaches22_tx _ _ _ _ _ (T_tx a b (at_time22 (S ns)) _ ns _ _ eomsb _ Hb ltac:(lia) ltac:(lia) (jobA22_eoms a (at_time22 (S ns)) _ Ha ltac:(lia))) eq_refl).
    apply (treaches22_quiet _ _ _ _ (T_status _ b _ dlB _ Hb) eq_refl). exists 0%nat. split; [|reflexivity].
    destruct Ha as ((Ar & _) & _), Hb as ((Bs & _) & _). repeat split; assumption || reflexivity.
  Qed.

  (* k rows have reached B at time at_time22 k and n are left: an interval passes, row k leaves and reaches B, and so on *)
  Lemma rounds : forall n k a b, (k + n = ns)%nat -> (0 < n)%nat -> SA a (at_time22 (S k)) k -> SB b (at_time22 k + tp22_T1) k ->
    treaches22 BmDone (run a b (at_time22 k) [] (dtfsb 0 k)) (tail_log k).
  Proof.
    induction n as [|n IH]; intros k a b Hn Hpos Ha Hb; [lia|].
    pose proof (at_time22_pos k) as Htm. pose proof (at_time22_S k) as Etm. pose proof (at_time22_S (S k)) as Etm'. assert (HT1 : tp22_T1 = 750000) by reflexivity.
    destruct (jobA22_send a (at_time22 (S k)) _ k Ha ltac:(lia) ltac:(lia)) as (a' & r & Ha' & Ej). rewrite Etm' in Ha'.
    destruct (hB22_bdt b (at_time22 (S k)) _ k Hb ltac:(lia)) as (b' & Hb' & Eh).
    rewrite tail_log_S by lia.
    apply (treaches22_quiet _ _ _ _ (T_wait a b (at_time22 k) _ k _ k _ Ha Hb ltac:(lia) ltac:(lia) ltac:(lia)) eq_refl).
    apply (treaches22_tx _ _ _ _ _ (T_tx a b (at_time22 (S k)) _ k _ a' (dtfb k) _ Hb ltac:(lia) ltac:(lia) Ej) eq_refl).
    apply (treaches22_quiet _ _ _ _ (T_rx a' b _ (dtfb k) [] _ b' Eh) eq_refl). rewrite dtfsb_snoc.
    revert Hb'. destruct (Nat.eqb_spec (S k) ns) as [E|NE]; intros Hb'.
    - unfold tail_log. rewrite E, Nat.sub_diag in *. apply (last_round a' b' _ Ha' Hb'). lia.
    - apply (IH (S k) a' b'); [lia|lia|exact Ha'|exact Hb'].
  Qed.

  (* ---- the start: A's send_pgn has put the announcement on the wire *)
  Let A1 : node22 := wake22 (set_fsnd (set_fbam A0 bpool1) [(h, sbm (t0 + iv) 0 (segments p))]).
  Lemma s0_eq : net22_send (net22_0 A0 B0 t0) dp pf ps prio sa p = run A1 B0 t0 [bam22] [].
  Proof.
    destruct HA as (As & _ & _ & _ & Ap). unfold net22_send, net22_0. cbn [fa fb pa pb fclk eva2 evb2 wab2 wba2].
    rewrite (send_pgn22_bam A0 t0 As Ap). reflexivity.
  Qed.

  Theorem bam_closed_loop22_timed :
    let s0 := net22_send (net22_0 A0 B0 t0) dp pf ps prio sa p in
    wab2 s0 = [bam22] /\ fclk s0 = t0 /\ treaches22 BmDone s0 (tail_log 0).
  Proof.
    destruct HA as (As & Ar & Am & At & Ap). destruct HB as (Bs & Br & Bm & Bt).
    pose proof (ns_range p Hsize) as (Hns & _). fold ns in Hns. cbv zeta. rewrite s0_eq.
    split; [reflexivity|]. split; [reflexivity|].
    apply (treaches22_quiet _ _ _ _ (T_rx A1 B0 t0 bam22 [] [] _ (hB22_bam B0 t0 Br)) eq_refl).
    rewrite <- at_time22_0. apply (rounds ns 0); [reflexivity|lia| |].
    - split; [repeat split; assumption || reflexivity|]. exists (segments p). split; [rewrite <- at_time22_S, at_time22_0; reflexivity|]. intros j _. reflexivity.
    - split; [|reflexivity]. repeat split; assumption || reflexivity.
  Qed.

  (* T02.10: the FD broadcast closed loop, for a PDU1 group sent to the global address and for a PDU2 group with any group
     extension (delivered under PGN dp.pf.ps): nothing is queued, no session is left on either side, the session number is
     back in the pool, the listeners on B got p once, and the wire carried the announcement, the data frames of all rows in
     order and the end-of-message status *)
  Theorem bam_closed_loop22_delivers_any : exists j, BmDone (steps22 j (net22_send (net22_0 A0 B0 t0) dp pf ps prio sa p)).
  Proof using Hprio Hsa Hkind Hdp Hsize Ht0 Hiv Hiv2 HA HB. destruct bam_closed_loop22_timed as (_ & _ & j & H & _). exists j. exact H. Qed.

  (* T09.16: the same run with its times: the data frame of segment k leaves at t0 + (k+1)·iv, the end-of-message status one
     interval after the last — consecutive frames of the broadcast are exactly the configured interval apart *)
  Theorem bam_closed_loop22_paced_any :
    let s0 := net22_send (net22_0 A0 B0 t0) dp pf ps prio sa p in
    wab2 s0 = [bam22] /\ fclk s0 = t0 /\
    exists j, (pa (steps22 j s0) = [] /\ pb (steps22 j s0) = [] /\ f_snd (fa (steps22 j s0)) = [] /\ f_rcv (fb (steps22 j s0)) = [] /\
               evb2 (steps22 j s0) = bdelivered22) /\
      tlog22 j s0 = map (fun k => (t0 + Z.of_nat (S k) * iv, dtfb k)) (seq 0 ns) ++ [(t0 + Z.of_nat (S ns) * iv, eomsb)].
  Proof using Hprio Hsa Hkind Hdp Hsize Ht0 Hiv Hiv2 HA HB.
    destruct bam_closed_loop22_timed as (Hw & Hc & j & Hd & Hl).
    split; [exact Hw|]. split; [exact Hc|]. exists j. split; [|rewrite Hl; unfold tail_log; rewrite Nat.sub_0_r; reflexivity].
    destruct Hd as (Q1 & Q2 & Q3 & Q4 & Q5 & Q6 & Q7 & Q8 & _). repeat split; assumption.
  Qed.
End BamLoop22.

(* the two for a PDU1 group, whose PGN has no group extension *)
Theorem bam_closed_loop22_delivers prio sa dp pf p t0 A0 B0 :
  0 <= prio < 8 -> 0 <= sa < 255 -> 0 <= pf < 240 -> 0 <= dp < 2 -> 60 < len p < 16777216 -> 0 < t0 ->
  0 < f_bam_iv A0 < tp22_T1 -> 2 * f_bam_iv A0 < tp22_T1 ->
  f_snd A0 = [] /\ f_rcv A0 = [] /\ f_mpg A0 = [] /\ n_timers (base A0) = [] /\ f_bam A0 = repeat true tp22_pool_bam ->
  f_snd B0 = [] /\ f_rcv B0 = [] /\ f_mpg B0 = [] /\ n_timers (base B0) = [] ->
  let pv := dp * 65536 + pf * 256 in
  let ns := ((length p + 59) / 60)%nat in
  exists j, let s := steps22 j (net22_send (net22_0 A0 B0 t0) dp pf 255 prio sa p) in
    pa s = [] /\ pb s = [] /\ f_snd (fa s) = [] /\ f_rcv (fa s) = [] /\ f_snd (fb s) = [] /\ f_rcv (fb s) = [] /\
    f_bam (fa s) = repeat true tp22_pool_bam /\
    evb2 s = deliveries (base B0) 7 pv sa addr_GLOBAL p /\
    wab2 s = tp22_bam prio sa 0 pv (len p) (Z.of_nat ns)
             :: map (fun k => match dt_frame sa addr_GLOBAL 0 (Z.of_nat k + 1) (row p k) with
                              | Some (fr, _) => fr | None => tp22_bam prio sa 0 pv (len p) (Z.of_nat ns) end) (seq 0 ns)
             ++ [tp22_eom_status sa addr_GLOBAL 0 (len p) (Z.of_nat ns) pv].
Proof.
  intros H1 H2 H3 H4 H5 H6 H7 H8 HA HB pv ns.
  pose proof (bam_closed_loop22_delivers_any prio sa dp pf 255 p t0 A0 B0 H1 H2 (or_introl (conj H3 eq_refl)) H4 H5 H6 H7 H8 HA HB) as H.
  unfold BmDone, bdelivered22, dtfsb, dtfb, eomsb, bam22 in H. rewrite bam_pgn22_pdu1 in H by lia. exact H.
Qed.

Theorem bam_closed_loop22_paced prio sa dp pf p t0 A0 B0 :
  0 <= prio < 8 -> 0 <= sa < 255 -> 0 <= pf < 240 -> 0 <= dp < 2 -> 60 < len p < 16777216 -> 0 < t0 ->
  0 < f_bam_iv A0 < tp22_T1 -> 2 * f_bam_iv A0 < tp22_T1 ->
  f_snd A0 = [] /\ f_rcv A0 = [] /\ f_mpg A0 = [] /\ n_timers (base A0) = [] /\ f_bam A0 = repeat true tp22_pool_bam ->
  f_snd B0 = [] /\ f_rcv B0 = [] /\ f_mpg B0 = [] /\ n_timers (base B0) = [] ->
  let pv := dp * 65536 + pf * 256 in
  let ns := ((length p + 59) / 60)%nat in
  let iv := f_bam_iv A0 in
  let s0 := net22_send (net22_0 A0 B0 t0) dp pf 255 prio sa p in
  wab2 s0 = [tp22_bam prio sa 0 pv (len p) (Z.of_nat ns)] /\ fclk s0 = t0 /\
  exists j, (pa (steps22 j s0) = [] /\ pb (steps22 j s0) = [] /\ f_snd (fa (steps22 j s0)) = [] /\ f_rcv (fb (steps22 j s0)) = [] /\
             evb2 (steps22 j s0) = deliveries (base B0) 7 pv sa addr_GLOBAL p) /\
    tlog22 j s0 = map (fun k => (t0 + Z.of_nat (S k) * iv,
                                 match dt_frame sa addr_GLOBAL 0 (Z.of_nat k + 1) (row p k) with
                                 | Some (fr, _) => fr | None => tp22_bam prio sa 0 pv (len p) (Z.of_nat ns) end)) (seq 0 ns)
                  ++ [(t0 + Z.of_nat (S ns) * iv, tp22_eom_status sa addr_GLOBAL 0 (len p) (Z.of_nat ns) pv)].
Proof.
  intros H1 H2 H3 H4 H5 H6 H7 H8 HA HB pv ns iv s0.
  pose proof (bam_closed_loop22_paced_any prio sa dp pf 255 p t0 A0 B0 H1 H2 (or_introl (conj H3 eq_refl)) H4 H5 H6 H7 H8 HA HB) as H.
  unfold bdelivered22, dtfb, eomsb, bam22 in H. rewrite bam_pgn22_pdu1 in H by lia. exact H.
Qed.

Example bam_closed_loop22_pdu2_instance :
  let A := init_node22 3 None None in
  let B := sub22 (init_node22 2 None None) 7 FNone in
  let p := map Z.of_nat (seq 1 150) in
  let s := steps22 13 (net22_send (net22_0 A B 1000) 0 254 202 6 128 p) in
  quiet22 s = true /\ evb2 s = [OCb 7 7 65226 128 p] /\ length (wab2 s) = 5%nat /\ wba2 s = [].
Proof. vm_compute. repeat split. Qed.

Example bam_closed_loop22_instance :
  let A := init_node22 3 None None in
  let B := sub22 (init_node22 2 None None) 7 FNone in
  let p := map Z.of_nat (seq 1 150) in
  let s := steps22 13 (net22_send (net22_0 A B 1000) 0 239 255 6 128 p) in
  quiet22 s = true /\ evb2 s = [OCb 7 7 61184 128 p] /\ length (wab2 s) = 5%nat /\ wba2 s = [] /\
  fclk s = 1000 + 4 * f_bam_iv A /\ 2 * f_bam_iv A < tp22_T1.
Proof. vm_compute. repeat split. Qed.

Example bam_closed_loop22_times :
  let A := init_node22 3 None None in
  let B := sub22 (init_node22 2 None None) 7 FNone in
  let p := map Z.of_nat (seq 1 150) in
  map fst (tlog22 13 (net22_send (net22_0 A B 1000) 0 239 255 6 128 p)) = [1000 + f_bam_iv A; 1000 + 2 * f_bam_iv A; 1000 + 3 * f_bam_iv A; 1000 + 4 * f_bam_iv A].
Proof. vm_compute. reflexivity. Qed.
