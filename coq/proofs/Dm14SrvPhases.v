(* Dm14SrvPhases.v — C19: the states a transaction passes through ARE the states of Dm14SrvProofs.running.
   For ANY well-formed 8-byte DM14 request (any count, command, pointer, key bytes) from ANY requester arriving at an
   idle serving side: after it — with or without seed/key, with or without a proceed callback — the serving side is in
   a running state for that requester; after the key DM14 (right key) it still is.  (From then on a running state
   persists until the server returns to IDLE: running only asks for "server not idle" there.) *)
From J1939 Require Import Base Dm14Srv.
From J1939P Require Import Dm14SrvProofs.
Open Scope Z_scope.

Definition idle_state (s : srv) : Prop :=
  a_state s = D_IDLE /\ v_state s = R_IDLE /\ v_sa s = None /\ v_addr s = None /\ v_busy s = false.

(* parse_dm14 on an 8-byte DM14 that passes the guard, in IDLE and in WAIT_FOR_KEY.  The states stay nests of updates: a
   field of one is read by reflexivity where it is needed; normalising the nest copies the record below into each of
   the 22 fields of every update. *)
Lemma parse_dm14_first c s sa d0 d1 a0 a1 a2 a3 k0 k1 (data := [d0; d1; a0; a1; a2; a3; k0; k1]) :
  v_state s = R_IDLE -> v_sa s = None -> v_addr s = None -> v_busy s = false ->
  parse_dm14 c s PGN_DM14 sa data =
  let s6 := set_data (set_access (set_objcnt (set_ptype (set_command (set_addr (set_status (set_sa (set_direct (set_length s 8)
              (Z.shiftr d1 4)) (Some sa)) 0) (Some [a0; a1; a2; a3])) (Some (Z.shiftr (Z.land (d1 - 1) 15) 1))) (Some (Z.land (Z.shiftr d1 4) 1)))
              (Some d0)) (Some (k1 * 256 + k0))) data in
  if c_seedsec c then send_dm15 (set_state s6 R_WAIT_FOR_KEY) 8 (Z.shiftr d1 4) 0 R_WAIT_FOR_KEY (Some d0) (Some sa) None None
  else ok (set_state s6 R_SEND_PROCEED).
Proof. intros Hv Hsa Had Hb. destruct s; cbn in Hv, Hsa, Had, Hb; subst. reflexivity. Qed.

Lemma zlist_eqb_refl l : zlist_eqb l l = true.
Proof. induction l as [|x l IH]; [reflexivity|]. cbn [zlist_eqb]. rewrite Z.eqb_refl. exact IH. Qed.

Lemma parse_dm14_key c s sa d0 d1 a0 a1 a2 a3 k0 k1 (data := [d0; d1; a0; a1; a2; a3; k0; k1]) :
  v_state s = R_WAIT_FOR_KEY -> v_sa s = Some sa -> v_addr s = Some [a0; a1; a2; a3] -> v_length s = 8 -> v_busy s = false ->
  parse_dm14 c s PGN_DM14 sa data =
  ok (set_state (set_data (set_key (set_objcnt (set_command (set_addr (set_direct (set_length s 8) (Z.shiftr d1 4)) (Some [a0; a1; a2; a3]))
        (Some (Z.shiftr (Z.land (d1 - 1) 15) 1))) (Some d0)) (Some (k1 * 256 + k0))) data) R_SEND_PROCEED).
Proof.
  intros Hv Hsa Had Hl Hb. unfold parse_dm14. rewrite Hsa, Had, Hl, Hb, !Z.eqb_refl.
  change (py_slice data 2 (8 - 2)) with [a0; a1; a2; a3]. rewrite zlist_eqb_refl.
  destruct s; cbn in Hv; subst. reflexivity.
Qed.

Lemma send_dm15_seed8 s direct st oc a er ed :
  send_dm15 s 8 direct st R_WAIT_FOR_KEY oc (Some a) er ed =
  let '(sd, rest) := match seeds s with x :: r => (x, r) | [] => (48879, []) end in
  (set_seeds (set_seed s (Some sd)) rest,
   [SSend 216 (Z.land a 255) 6 [0; direct * 16 + st * 2 + 1; 255; 255; 255; 255; Z.land sd 255; Z.shiftr sd 8]], None).
Proof. reflexivity. Qed.

(* the scripted answers of the application: none left counts as yes *)
Lemma ask_application_yes s key seed cmd ad pt oc a acc :
  v_command s = Some cmd -> v_addr s = Some ad -> v_ptype s = Some pt -> v_objcnt s = Some oc -> v_sa s = Some a -> v_access s = Some acc ->
  (answers s = [] \/ exists r, answers s = true :: r) ->
  ask_application s key seed =
  (emit (set_answers s (tl (answers s))) (SProceedFn cmd (le_int ad) pt (v_length s) oc key a acc seed), true).
Proof. unfold ask_application. intros -> -> -> -> -> -> [->|[r ->]]; reflexivity. Qed.

(* without seed/key, without a proceed callback: the request waits for the application's respond() *)
Theorem first_dm14_noseed_noproceed c s sa d0 d1 a0 a1 a2 a3 k0 k1 :
  c_seedsec c = false -> c_hasproceed c = false -> idle_state s ->
  let '(s', os, e) := listen_for_dm14 c s PGN_DM14 sa [d0; d1; a0; a1; a2; a3; k0; k1] in
  e = None /\ running s' sa /\ os = [].
Proof.
  intros Hsec Hpro (Ha & Hv & Hsa & Had & Hb). unfold listen_for_dm14.
  rewrite Ha, Hv, parse_dm14_first, Hsec, Hpro by assumption. cbn [negb Z.eqb Pos.eqb PGN_DM14 D_IDLE R_IDLE bind ok app].
  split; [reflexivity|]. split; [|reflexivity]. split; [reflexivity|]. split; [exact Hb|]. right. left. reflexivity.
Qed.

(* without seed/key, the application's proceed callback says yes: asked once with exactly the request's fields, notified *)
Theorem first_dm14_noseed_proceed c s sa d0 d1 a0 a1 a2 a3 k0 k1 :
  c_seedsec c = false -> c_hasproceed c = true -> idle_state s -> (answers s = [] \/ exists r, answers s = true :: r) ->
  let '(s', os, e) := listen_for_dm14 c s PGN_DM14 sa [d0; d1; a0; a1; a2; a3; k0; k1] in
  e = None /\ running s' sa /\
  os = [SProceedFn (Z.shiftr (Z.land (d1 - 1) 15) 1) (le_int [a0; a1; a2; a3]) (Z.land (Z.shiftr d1 4) 1) 8 d0 65535 sa (k1 * 256 + k0) 0; SNotify].
Proof.
  intros Hsec Hpro (Ha & Hv & Hsa & Had & Hb) Hans. unfold listen_for_dm14.
  rewrite Ha, Hv, parse_dm14_first, Hsec, Hpro by assumption. cbn [negb Z.eqb Pos.eqb PGN_DM14 D_IDLE R_IDLE bind ok app].
  erewrite ask_application_yes by first [reflexivity|exact Hans]. cbn [bind emit app].
  split; [reflexivity|]. split; [|reflexivity]. split; [reflexivity|]. split; [exact Hb|]. right. left. reflexivity.
Qed.

(* with seed/key: the seed goes out, the transaction waits for the key *)
Theorem first_dm14_seedkey c s sa d0 d1 a0 a1 a2 a3 k0 k1 :
  c_seedsec c = true -> idle_state s ->
  let '(s', os, e) := listen_for_dm14 c s PGN_DM14 sa [d0; d1; a0; a1; a2; a3; k0; k1] in
  e = None /\ running s' sa /\ a_state s' = D_REQUEST_STARTED /\ v_state s' = R_WAIT_FOR_KEY /\
  exists sd, v_seed s' = Some sd /\
             os = [SSend 216 (Z.land sa 255) 6 [0; Z.shiftr d1 4 * 16 + 0 * 2 + 1; 255; 255; 255; 255; Z.land sd 255; Z.shiftr sd 8]].
Proof.
  intros Hsec (Ha & Hv & Hsa & Had & Hb). unfold listen_for_dm14.
  rewrite Ha, Hv, parse_dm14_first, Hsec, send_dm15_seed8 by assumption.
  destruct (match seeds _ with x :: r => (x, r) | [] => (48879, []) end) as [sd rest].
  cbn [negb Z.eqb Pos.eqb PGN_DM14 D_IDLE R_IDLE bind ok app].
  split; [reflexivity|]. split; [split; [reflexivity|]; split; [exact Hb|]; left; split; reflexivity|].
  split; [reflexivity|]. split; [reflexivity|]. exists sd. split; reflexivity.
Qed.

(* REQUEST_STARTED, the server has taken the key DM14, and it is the key of the seed: what is left of listen_for_dm14 *)
Lemma listen_right_key c s s1 o1 sa data sd ky :
  a_state s = D_REQUEST_STARTED -> parse_dm14 c s PGN_DM14 sa data = (s1, o1, None) -> v_state s1 = R_SEND_PROCEED ->
  c_seedsec c = true -> c_hasproceed c = true -> v_seed s1 = Some sd -> v_key s1 = Some ky -> c_key c sd = ky ->
  listen_for_dm14 c s PGN_DM14 sa data =
  (s1, o1, None) >>= (fun _ => let '(r, ans) := ask_application (set_astate s1 D_WAIT_RESPONSE) ky sd in
                               r >>= (fun s3 => if ans then emit s3 SNotify else refuse c s3 256 PGN_DM14 sa data)).
Proof.
  intros Ha Hp Hv Hsec Hpro Hsd Hky Hk. unfold listen_for_dm14. rewrite Ha, Hp. cbn [negb Z.eqb Pos.eqb PGN_DM14 D_REQUEST_STARTED D_IDLE bind].
  rewrite Hv, Hsec, Hpro. change (v_seed (set_astate s1 D_WAIT_RESPONSE)) with (v_seed s1). change (v_key (set_astate s1 D_WAIT_RESPONSE)) with (v_key s1).
  rewrite Hsd, Hky, Hk, !Z.eqb_refl. reflexivity.
Qed.

(* the key DM14 with the RIGHT key: the request is handed to the application (asked with exactly that key and seed,
   then notified) and waits for respond(); a running state throughout *)
Theorem key_dm14_right_key c s sa sd d0 d1 a0 a1 a2 a3 k0 k1 :
  c_seedsec c = true -> c_hasproceed c = true -> (answers s = [] \/ exists r, answers s = true :: r) ->
  a_state s = D_REQUEST_STARTED -> v_state s = R_WAIT_FOR_KEY -> v_sa s = Some sa -> v_busy s = false ->
  v_addr s = Some [a0; a1; a2; a3] -> v_length s = 8 -> v_seed s = Some sd -> c_key c sd = k1 * 256 + k0 ->
  v_ptype s <> None -> v_access s <> None ->
  let '(s', os, e) := listen_for_dm14 c s PGN_DM14 sa [d0; d1; a0; a1; a2; a3; k0; k1] in
  e = None /\ running s' sa /\ a_state s' = D_WAIT_RESPONSE /\
  exists cmd ad pt l oc acc, os = [SProceedFn cmd ad pt l oc (k1 * 256 + k0) sa acc sd; SNotify].
Proof.
  intros Hsec Hpro Hans Ha Hv Hsa Hb Had Hlen Hseed Hkey Hpt Hacc.
  destruct (v_ptype s) as [pt|] eqn:Ept; [|contradiction]. destruct (v_access s) as [acc|] eqn:Eacc; [|contradiction].
  rewrite (listen_right_key c s _ _ sa _ sd (k1 * 256 + k0) Ha (parse_dm14_key c s sa d0 d1 a0 a1 a2 a3 k0 k1 Hv Hsa Had Hlen Hb) eq_refl Hsec Hpro Hseed eq_refl Hkey).
  erewrite ask_application_yes by first [reflexivity|eassumption]. cbn [bind emit app].
  split; [reflexivity|]. split; [split; [exact Hsa|]; split; [exact Hb|]; right; left; reflexivity|].
  split; [reflexivity|]. do 6 eexists. reflexivity.
Qed.
