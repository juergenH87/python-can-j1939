(* Net21BamSeq.v — a HISTORY of broadcasts (T10.21): any number of J1939-21 broadcasts (PDU1 groups to the global address, PDU2
   groups with any group extension; any payloads of 9..1785 bytes) sent one after the other by one node, each submitted when
   the network has come to rest, ALL reach every listener of the other node exactly once, in order — the completed broadcast
   closed loop restores its own premises (Net21Bam.bam_closed_loop_restores), the logs are carried along as in Net21Seq.
   Corollary for C16: every cycle of a cyclic DM1 delivers exactly what that cycle's callback supplied. *)
From J1939 Require Import Base CodecGlue Model21 Dm1Model.
From J1939.gen Require Import Codec Tp21Gen CaGen DiagGen.
From J1939P Require Import CodecProofs Flat Tp21Seg Tp21Resp Tp21Orig Net21 Net21Proofs Net21Seq Net21Bam DiagProofs.
Local Arguments Z.add : simpl never.
Local Arguments Z.mul : simpl never.

Record bmsg := { b_dp : Z; b_pf : Z; b_ps : Z; b_prio : Z; b_data : list Z }.
Definition bmsg_ok (m : bmsg) : Prop :=
  0 <= b_dp m < 2 /\ ((0 <= b_pf m < 240 /\ b_ps m = 255) \/ (240 <= b_pf m < 256 /\ 0 <= b_ps m < 256)) /\
  0 <= b_prio m < 8 /\ 8 < len (b_data m) <= 1785.
Fixpoint bseq_reach (sa : Z) (s : net) (ms : list bmsg) (s' : net) : Prop :=
  match ms with
  | [] => s' = s
  | m :: r => exists j, bseq_reach sa (steps j (net_send s (b_dp m) (b_pf m) (b_ps m) (b_prio m) sa (b_data m))) r s'
  end.
Definition bwire_of (sa : Z) (m : bmsg) : list frame :=
  let pv := bam_pgn (b_dp m) (b_pf m) (b_ps m) in
  tp21_bam sa (b_prio m) pv (len (b_data m)) (Z.of_nat (npk (length (b_data m))))
  :: map (fun k => tp21_dt sa addr_GLOBAL (dt_payload (b_data m) (Z.of_nat k))) (seq 0 (npk (length (b_data m)))).

Definition bpremA (iv : Z) (a : node) : Prop := n_snd a = [] /\ n_rcv a = [] /\ n_timers a = [] /\ n_bam_iv a = iv.
Definition bpremB (b : node) : Prop := n_snd b = [] /\ n_rcv b = [] /\ n_timers b = [].

Theorem broadcast_sequence_delivers sa iv : 0 <= sa < 255 -> 0 < iv < tp21_T1 ->
  forall ms s, Forall bmsg_ok ms -> qa s = [] -> qb s = [] -> 0 < clk s -> bpremA iv (na s) -> bpremB (nb s) ->
  exists s', bseq_reach sa s ms s' /\
    qa s' = [] /\ qb s' = [] /\ bpremA iv (na s') /\ bpremB (nb s') /\
    evb s' = evb s ++ concat (map (fun m => deliveries (nb s) 7 (bam_pgn (b_dp m) (b_pf m) (b_ps m)) sa addr_GLOBAL (b_data m)) ms) /\
    wab s' = wab s ++ concat (map (bwire_of sa) ms).
Proof.
  intros Hsa Hiv. induction ms as [|m r IH]; intros s Hok Hqa Hqb Hc HA HB.
  - exists s. cbn [bseq_reach map concat]. rewrite !app_nil_r.
    exact (conj eq_refl (conj Hqa (conj Hqb (conj HA (conj HB (conj eq_refl eq_refl)))))).
  - pose proof (Forall_inv Hok) as (Hdp & Hkind & Hpr & Hlen). pose proof (Forall_inv_tail Hok) as Hr.
    destruct HA as (As & Ar & At & Ai). destruct HB as (Bs & Br & Bt).
    assert (Hiv' : 0 < n_bam_iv (na s) < tp21_T1) by (rewrite Ai; exact Hiv).
    destruct (bam_closed_loop_restores (b_prio m) sa (b_dp m) (b_pf m) (b_ps m) (b_data m) (clk s) (na s) (nb s)
                Hpr Hsa Hkind Hdp Hlen Hc Hiv' (conj As (conj Ar At)) (conj Bs (conj Br Bt)))
      as (j & (Q1 & Q2 & Qc & Qe & Qw) & (A1 & A2 & A3 & A4) & (B1 & B2 & B3 & Bsub & Bcas)).
    pose proof (steps_from_rest s j (b_dp m) (b_pf m) (b_ps m) (b_prio m) sa (b_data m) Hqa Hqb) as E1.
    set (s1 := plog _ _) in E1.
    destruct (IH s1 Hr Q1 Q2 Qc (conj A1 (conj A2 (conj A3 (eq_trans A4 Ai)))) (conj B1 (conj B2 B3)))
      as (s' & Hreach & R1 & R2 & RA & RB & Re & Rw).
    rewrite <- E1 in Hreach. exists s'. refine (conj (ex_intro _ j Hreach) (conj R1 (conj R2 (conj RA (conj RB _))))).
    rewrite Re, Rw. unfold s1. cbn [plog evb wab nb map concat l_evb l_wab]. rewrite Qe, Qw, <- !app_assoc.
    split; [|reflexivity]. do 3 f_equal. apply map_ext. intros m'. apply deliveries_same; assumption.
Qed.

(* ---------------------------------------------------------------- C16: cyclic DM1 *)
Record dm1c := { c_pl : Z; c_awl : Z; c_rsl : Z; c_mil : Z; c_dtcs : list dtc }.
Definition dm1c_ok (c : dm1c) : Prop :=
  lamp_state (c_pl c) /\ lamp_state (c_awl c) /\ lamp_state (c_rsl c) /\ lamp_state (c_mil c) /\ Forall dtc_ok (c_dtcs c) /\
  (2 <= length (c_dtcs c) <= 445)%nat.
Definition dm1_payload (c : dm1c) : list Z := dm1_build (c_pl c) (c_awl c) (c_rsl c) (c_mil c) (c_dtcs c).
Definition dm1_msg (c : dm1c) : bmsg :=
  {| b_dp := 0; b_pf := 254; b_ps := 202; b_prio := dm1_priority (dm1_payload c); b_data := dm1_payload c |}.

Lemma dm1_msg_ok c : dm1c_ok c -> bmsg_ok (dm1_msg c) /\ dm1_parse (dm1_payload c) = Some ([c_pl c; c_awl c; c_rsl c; c_mil c], c_dtcs c).
Proof.
  intros (H1 & H2 & H3 & H4 & Hok & Hn).
  assert (Hne : c_dtcs c <> []) by (destruct (c_dtcs c); [cbn in Hn; lia|discriminate]).
  destruct (dm1_roundtrip _ _ _ _ _ H1 H2 H3 H4 Hne Hok) as (Hparse & Hlen).
  split; [|exact Hparse].
  unfold bmsg_ok, dm1_msg, dm1_payload. cbn [b_dp b_pf b_ps b_prio b_data].
  assert (Hl : 8 < len (dm1_build (c_pl c) (c_awl c) (c_rsl c) (c_mil c) (c_dtcs c)) <= 1785) by (unfold len; rewrite Hlen; lia).
  split; [lia|]. split; [right; lia|]. split; [|exact Hl].
  unfold dm1_priority. unfold len in Hl. destruct (Z.of_nat (length _) >? 8); lia.
Qed.

(* C16_dm1_every_cycle_delivers: every cycle of a cyclic DM1 (whatever the callback given to Dm1.start_send supplies at each
   cycle: lamp states and 2..445 trouble codes, varying freely from cycle to cycle), sent when the previous one has gone out:
   the listeners of the other node get one payload per cycle, in order, and the k-th parses back to exactly what the k-th
   cycle supplied *)
Theorem dm1_every_cycle_delivers sa iv : 0 <= sa < 255 -> 0 < iv < tp21_T1 ->
  forall cs s, Forall dm1c_ok cs -> qa s = [] -> qb s = [] -> 0 < clk s -> bpremA iv (na s) -> bpremB (nb s) ->
  exists s', bseq_reach sa s (map dm1_msg cs) s' /\ qa s' = [] /\ qb s' = [] /\ bpremA iv (na s') /\ bpremB (nb s') /\
    evb s' = evb s ++ concat (map (fun c => deliveries (nb s) 7 65226 sa addr_GLOBAL (dm1_payload c)) cs) /\
    Forall (fun c => dm1_parse (dm1_payload c) = Some ([c_pl c; c_awl c; c_rsl c; c_mil c], c_dtcs c)) cs.
Proof.
  intros Hsa Hiv cs s Hok Hqa Hqb Hc HA HB.
  assert (Hm : Forall bmsg_ok (map dm1_msg cs)).
  { apply Forall_map. eapply Forall_impl; [|exact Hok]. intros c Hcok. apply (dm1_msg_ok c Hcok). }
  destruct (broadcast_sequence_delivers sa iv Hsa Hiv (map dm1_msg cs) s Hm Hqa Hqb Hc HA HB) as (s' & Hr & R1 & R2 & RA & RB & Re & _).
  exists s'. refine (conj Hr (conj R1 (conj R2 (conj RA (conj RB (conj _ _)))))).
  - rewrite Re. f_equal. f_equal. rewrite map_map. apply map_ext. intros c. reflexivity.
  - eapply Forall_impl; [|exact Hok]. intros c Hcok. apply (dm1_msg_ok c Hcok).
Qed.

Example dm1_two_cycles :
  let A := init_node 3 None None in
  let B := subscribe (init_node 2 None None) 7 FNone in
  let c1 := {| c_pl := 1; c_awl := 0; c_rsl := 4; c_mil := 2; c_dtcs := [{| d_spn := 100; d_fmi := 3; d_oc := 1 |}; {| d_spn := 524287; d_fmi := 31; d_oc := 127 |}] |} in
  let c2 := {| c_pl := 0; c_awl := 0; c_rsl := 0; c_mil := 1; c_dtcs := [{| d_spn := 100; d_fmi := 3; d_oc := 2 |}; {| d_spn := 7; d_fmi := 0; d_oc := 0 |}; {| d_spn := 9; d_fmi := 1; d_oc := 5 |}] |} in
  let m1 := dm1_msg c1 in let m2 := dm1_msg c2 in
  let s1 := steps 10 (net_send (net0 A B 1000) (b_dp m1) (b_pf m1) (b_ps m1) (b_prio m1) 32 (b_data m1)) in
  let s2 := steps 10 (net_send s1 (b_dp m2) (b_pf m2) (b_ps m2) (b_prio m2) 32 (b_data m2)) in
  quiet s2 = true /\ evb s2 = [OCb 7 7 65226 32 (dm1_payload c1); OCb 7 7 65226 32 (dm1_payload c2)].
Proof. vm_compute. repeat split. Qed.
