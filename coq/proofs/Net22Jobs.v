(* Net22Jobs.v — one iteration of the job thread of an FD node that holds at most one session (a receive session, a send
   session or a multi-PG buffer) and no timers: which pass the iteration comes down to, and what it does while the session
   waits.  The closed loops of Net22Proofs, Net22Bam, Net22Mpg and Net22Timeout are put together from these. *)
From J1939 Require Import Base CodecGlue Model21 Model22.
From J1939.gen Require Import Codec Tp21Gen CaGen Tp22Gen.
From J1939P Require Import Flat MpgProofs PoolProofs Steps22 TimeoutProofs22.
Local Arguments Z.add : simpl never.
Local Arguments Z.sub : simpl never.

Lemma minw_deadline nw dl : dl < nw -> minw nw dl = dl.
Proof. intros H. unfold minw. destruct (Z.gtb_spec nw dl); [reflexivity|lia]. Qed.

(* the end of every iteration: the timers; 5 s ([t + 5000000] below) is the wake-up time the iteration starts from *)
Definition job22_end (t : Z) (m : node22) (nw : Z) : act node22 :=
  lift m (timer_pass (n_timers (base m)) t nw (base m) (fun n2 nw2 => Done n2 (nw2 - t))) (fun m2 r => Done m2 r).

Lemma with_base_eta (m : node22) : with_base m (base m) = m.
Proof. destruct m; reflexivity. Qed.
Lemma job22_end_done t m nw : n_timers (base m) = [] -> flat22 (job22_end t m nw) = (m, [], RDone (nw - t)).
Proof. intros Ht. unfold job22_end. rewrite Ht. cbn [timer_pass lift flat22]. rewrite with_base_eta. reflexivity. Qed.

Lemma job22_idle m t : f_rcv m = [] -> f_mpg m = [] -> f_snd m = [] -> n_timers (base m) = [] ->
  flat22 (job_iter22 m t) = (m, [], RDone (t + 5000000 - t)).
Proof.
  intros Hr Hm Hs Ht. unfold job_iter22, dll_job22. rewrite Hr. cbn [tkeys map rcv_pass22]. rewrite Hm. cbn [tkeys map mpg_pass].
  rewrite Hs. cbn [tkeys map snd_pass22]. apply job22_end_done. exact Ht.
Qed.

Lemma job22_rcv_wait m t h b : f_rcv m = [(h, b)] -> f_mpg m = [] -> f_snd m = [] -> n_timers (base m) = [] ->
  0 <= t < q_deadline b -> flat22 (job_iter22 m t) = (m, [], RDone (minw (t + 5000000) (q_deadline b) - t)).
Proof.
  intros Hr Hm Hs Ht Hc. unfold job_iter22, dll_job22. rewrite Hr at 1. cbn [tkeys map fst].
  rewrite (rcv22_before_deadline h t (t + 5000000) m _ b) by (try lia; rewrite Hr; apply tget_single).
  rewrite Hm. cbn [tkeys map mpg_pass]. rewrite Hs. cbn [tkeys map snd_pass22]. apply job22_end_done. exact Ht.
Qed.

Lemma job22_snd m t h b : f_rcv m = [] -> f_mpg m = [] -> f_snd m = [(h, b)] ->
  job_iter22 m t = snd_pass22 [h] t (t + 5000000) m (job22_end t).
Proof.
  intros Hr Hm Hs. unfold job_iter22, dll_job22. rewrite Hr. cbn [tkeys map rcv_pass22]. rewrite Hm. cbn [tkeys map mpg_pass].
  rewrite Hs. reflexivity.
Qed.
Lemma job22_snd_wait m t h b : f_rcv m = [] -> f_mpg m = [] -> n_timers (base m) = [] -> f_snd m = [(h, b)] ->
  0 <= t < t_deadline b -> flat22 (job_iter22 m t) = (m, [], RDone (minw (t + 5000000) (t_deadline b) - t)).
Proof.
  intros Hr Hm Ht Hs Hc. rewrite (job22_snd m t h b Hr Hm Hs).
  rewrite (snd22_before_deadline h t (t + 5000000) m (job22_end t) b) by (try lia; rewrite Hs; apply tget_single).
  apply job22_end_done. exact Ht.
Qed.

Lemma job22_mpg m t h b : f_rcv m = [] -> f_mpg m = [(h, b)] ->
  job_iter22 m t = mpg_pass [h] t (t + 5000000) m (fun m2 nw2 => snd_pass22 (tkeys (f_snd m2)) t nw2 m2 (job22_end t)).
Proof. intros Hr Hm. unfold job_iter22, dll_job22. rewrite Hr. cbn [tkeys map rcv_pass22]. rewrite Hm. reflexivity. Qed.

Lemma job22_mpg_wait m t h b : f_rcv m = [] -> f_snd m = [] -> n_timers (base m) = [] -> f_mpg m = [(h, b)] ->
  t < m_deadline b -> flat22 (job_iter22 m t) = (m, [], RDone (minw (t + 5000000) (m_deadline b) - t)).
Proof.
  intros Hr Hs Ht Hm Hc. rewrite (job22_mpg m t h b Hr Hm).
  rewrite (mpg_kept_before_deadline h t _ m _ b) by (try lia; rewrite Hm; apply tget_single).
  rewrite Hs. apply job22_end_done. exact Ht.
Qed.

Lemma job22_mpg_due m t h b fr : f_rcv m = [] -> f_snd m = [] -> n_timers (base m) = [] -> f_mpg m = [(h, b)] ->
  m_deadline b <= t -> (let '(ff, _, sa, dst) := tp22_unhash_mpg h in send_multi_pg ff (m_cpgs b) sa dst) = Some fr ->
  flat22 (job_iter22 m t) = (set_fmpg m [], [OTx fr], RDone (t + 5000000 - t)).
Proof.
  intros Hr Hs Ht Hm Hc Hfr. rewrite (job22_mpg m t h b Hr Hm).
  rewrite (mpg_emitted_at_deadline h t _ m _ b fr) by (try assumption; rewrite Hm; apply tget_single).
  cbn [f_snd set_fmpg]. rewrite Hs, Hm, tdel_single. cbn [tkeys map snd_pass22]. rewrite job22_end_done by exact Ht. reflexivity.
Qed.
