(* Net22Mpg.v — C11 end to end: in the closed loop of two FD model nodes (Net22.v), any list of parameter groups of 1..60 bytes
   submitted at one instant with time limits to one destination, as long as they fit one frame, leaves in ONE multi-PG frame
   at exactly the smallest of the limits, and every group reaches the listeners on B exactly once, in order, byte-identical,
   with its own PGN; afterwards nothing is queued and no buffer is left. *)
From J1939 Require Import Base CodecGlue Model21 Model22.
From J1939.gen Require Import Codec Tp21Gen CaGen Tp22Gen.
From J1939P Require Import CodecProofs Flat MpgProofs PoolProofs Steps22 Tp21Seg Tp21Resp Tp21Orig Tp22Proofs Tp22Resp Net22Jobs Net21 NetCommon Net21Proofs Net22 Net22Proofs Net22Bam.
Local Arguments Z.add : simpl never.
Local Arguments Z.sub : simpl never.
Local Arguments Z.mul : simpl never.

(* one submission: what the application hands to send_pgn *)
Record subm := { u_dp : Z; u_pf : Z; u_prio : Z; u_dat : list Z; u_tl : Z }.
Definition subm_ok (g : subm) : Prop :=
  0 <= u_dp g < 2 /\ 0 <= u_pf g < 240 /\ 0 <= u_prio g < 8 /\ (1 <= length (u_dat g) <= 60)%nat /\ 0 < u_tl g.
Definition cpg_of (g : subm) : cpg :=
  {| g_prio := u_prio g; g_tos := 2; g_tf := 0; g_cpgn := u_dp g * 65536 + u_pf g * 256; g_len := len (u_dat g); g_data := u_dat g |}.

Definition net22_submit (sa ps : Z) (s : net22) (g : subm) : net22 :=
  let '(a', os, _) := flat22 (send_pgn22 (fa s) (fclk s) (u_dp g) (u_pf g) ps (u_prio g) sa (u_dat g) (u_tl g) ff_FEFF) in
  {| fa := a'; fb := fb s; pa := pa s; pb := pb s ++ txs os; fclk := fclk s;
     eva2 := eva2 s ++ evs os; evb2 := evb2 s; wab2 := wab2 s ++ txs os; wba2 := wba2 s |}.

Lemma cpgn_arith dp pf ps : 0 <= dp < 2 -> 0 <= pf < 240 -> 0 <= ps < 256 ->
  Z.land (Z.land (pgn_value dp pf ps) 1048320) 262143 = dp * 65536 + pf * 256.
Proof.
  intros. rewrite pgn_value_arith by lia.
  change 1048320 with (Z.ones 12 * 2 ^ 8). rewrite land_high_mask by lia. rewrite land_3FFFF. pow2_norm. lia.
Qed.

Lemma send_small m now dp pf ps prio sa data tl :
  0 <= dp < 2 -> 0 <= pf < 240 -> 0 <= ps < 255 -> 0 <= prio < 8 -> (1 <= length data <= 60)%nat -> tl <> 0 ->
  flat22 (send_pgn22 m now dp pf ps prio sa data tl ff_FEFF) =
  match mpg_collect 300 0 ff_FEFF sa ps
          {| g_prio := prio; g_tos := 2; g_tf := 0; g_cpgn := dp * 65536 + pf * 256; g_len := len data; g_data := data |}
          now (now + tl) (f_mpg m) with
  | None => (m, [], RRaise E_Fuel)
  | Some t' => (wake22 (set_fmpg m t'), [], RDone 1)
  end.
Proof.
  intros Hdp Hpf Hps Hpr Hlen Htl. unfold send_pgn22. rewrite pgn_mk_small by lia.
  assert ((len data <=? tp22_TP) = true) as -> by (unfold tp22_TP, len; lia).
  assert (pgn_is_pdu1 pf = true) as -> by (rewrite pgn_is_pdu1_ltb; lia).
  change (ff_FEFF =? ff_FBFF) with false. cbn [andb]. cbv iota.
  unfold mpg_cpg_fields. rewrite cpgn_arith by lia. rewrite !land_7. rewrite (Z.mod_small prio) by lia.
  change (2 mod 8) with 2. change (0 mod 8) with 0.
  assert ((tl =? 0) = false) as -> by lia.
  destruct (mpg_collect _ _ _ _ _ _ _ _ _); reflexivity.
Qed.

Lemma letfst (x : node22 * list out * res) : (let '(m', os, _) := x in (m', os)) = fst x.
Proof. destruct x as [[? ?] ?]. reflexivity. Qed.

Lemma unhash_hash ff c sa da : 0 <= ff < 256 -> 0 <= c < 256 -> 0 <= sa < 256 -> 0 <= da < 256 ->
  tp22_unhash_mpg (tp22_hash_mpg ff c sa da) = (ff, c, sa, da).
Proof.
  intros. unfold tp22_unhash_mpg, tp22_hash_mpg. bits_to_arith.
  rewrite (Z.mod_small ff), (Z.mod_small c), (Z.mod_small sa), (Z.mod_small da) by lia.
  rewrite (lor_add_low (ff * 16777216) (c * 65536) 24) by (pow2_norm; lia).
  rewrite (lor_add_low (ff * 16777216 + c * 65536) (sa * 256) 16) by (pow2_norm; lia).
  rewrite (lor_add_low (ff * 16777216 + c * 65536 + sa * 256) da 8) by (pow2_norm; lia).
  repeat f_equal; lia.
Qed.

Definition with_fa (s : net22) (a : node22) : net22 :=
  {| fa := a; fb := fb s; pa := pa s; pb := pb s; fclk := fclk s; eva2 := eva2 s; evb2 := evb2 s; wab2 := wab2 s; wba2 := wba2 s |}.

Section MpgLoop.
  Variables (sa ps t0 : Z) (A0 B0 : node22) (g0 : subm) (gs : list subm).
  Hypothesis Hsa : 0 <= sa < 255.
  Hypothesis Hps : 0 <= ps < 255.
  Hypothesis Ht0 : 0 < t0.
  Hypothesis HA : f_snd A0 = [] /\ f_rcv A0 = [] /\ f_mpg A0 = [] /\ n_timers (base A0) = [].
  Hypothesis HB : f_snd B0 = [] /\ f_rcv B0 = [] /\ f_mpg B0 = [] /\ n_timers (base B0) = [] /\ accepts (base B0) ps = true.
  Let h := tp22_hash_mpg ff_FEFF 0 sa ps.

  Definition buf1 (g : subm) : mbuf := {| m_deadline := t0 + u_tl g; m_cpgs := [cpg_of g]; m_fill := 4 + len (u_dat g) |}.
  Definition acc_buf (b : mbuf) (g : subm) : mbuf :=
    {| m_deadline := (if m_deadline b >? t0 + u_tl g then t0 + u_tl g else m_deadline b);
       m_cpgs := m_cpgs b ++ [cpg_of g]; m_fill := m_fill b + 4 + len (u_dat g) |}.
  Definition fill_of (gs : list subm) : Z := fold_right (fun g acc => 4 + len (u_dat g) + acc) 0 gs.

  (* a group takes four bytes of header and at least one of data *)
  Lemma count_fill : forall l, Forall subm_ok l -> 5 * Z.of_nat (length l) <= fill_of l.
  Proof.
    induction l as [|g r IH]; intros Hok; [cbn; lia|]. inversion Hok as [|? ? Hg Hr]; subst. specialize (IH Hr).
    destruct Hg as (_ & _ & _ & Hl & _). cbn [length fill_of fold_right]. fold (fill_of r). unfold len. lia.
  Qed.

  (* names no field that set_fmpg or wake22 change: passes from a to wake22 (set_fmpg a t) by conversion *)
  Definition envA (a : node22) : Prop := f_snd a = [] /\ f_rcv a = [] /\ n_timers (base a) = [].

  Lemma collect_empty f c now dl :
    mpg_collect (S f) 0 ff_FEFF sa ps c now dl [] = Some [(h, {| m_deadline := dl; m_cpgs := [c]; m_fill := 4 + g_len c |})].
  Proof. reflexivity. Qed.
  Lemma collect_fit f c now dl b : m_fill b + 4 + g_len c <= 64 ->
    mpg_collect (S f) 0 ff_FEFF sa ps c now dl [(h, b)] =
    Some [(h, {| m_deadline := (if m_deadline b >? dl then dl else m_deadline b); m_cpgs := m_cpgs b ++ [c]; m_fill := m_fill b + 4 + g_len c |})].
  Proof.
    intros Hfit. cbn [mpg_collect tget]. fold h. rewrite Z.eqb_refl.
    assert ((m_fill b <=? tp22_TP - g_len c) = true) as -> by (unfold tp22_TP; lia).
    cbn [tset]. rewrite Z.eqb_refl. reflexivity.
  Qed.

  Lemma submit_collects s g t' : subm_ok g ->
    mpg_collect 300 0 ff_FEFF sa ps (cpg_of g) (fclk s) (fclk s + u_tl g) (f_mpg (fa s)) = Some t' ->
    net22_submit sa ps s g = with_fa s (wake22 (set_fmpg (fa s) t')).
  Proof.
    intros (Hdp & Hpf & Hpr & Hlen & Htl) E. unfold net22_submit, cpg_of in *.
    rewrite send_small, E by (try assumption; lia). cbn [txs flat_map evs filter]. rewrite !app_nil_r. reflexivity.
  Qed.
  Lemma submit_first s g : subm_ok g -> fclk s = t0 -> f_mpg (fa s) = [] ->
    net22_submit sa ps s g = with_fa s (wake22 (set_fmpg (fa s) [(h, buf1 g)])).
  Proof. intros Hg Hc Hm. apply (submit_collects s g _ Hg). rewrite Hm, Hc. apply collect_empty. Qed.
  Lemma submit_more s g b : subm_ok g -> fclk s = t0 -> f_mpg (fa s) = [(h, b)] -> m_fill b + 4 + len (u_dat g) <= 64 ->
    net22_submit sa ps s g = with_fa s (wake22 (set_fmpg (fa s) [(h, acc_buf b g)])).
  Proof. intros Hg Hc Hm Hfit. apply (submit_collects s g _ Hg). rewrite Hm, Hc. apply (collect_fit 299 (cpg_of g)), Hfit. Qed.

  Lemma submit_all : forall l s b, Forall subm_ok l -> fclk s = t0 -> f_mpg (fa s) = [(h, b)] -> envA (fa s) ->
    m_fill b + fill_of l <= 64 ->
    exists a, envA a /\ f_mpg a = [(h, fold_left acc_buf l b)] /\ fold_left (net22_submit sa ps) l s = with_fa s a.
  Proof.
    induction l as [|g r IH]; intros s b Hok Hc Hm Ea Hfit; cbn [fold_left].
    - exists (fa s). split; [exact Ea|]. split; [exact Hm|]. destruct s; reflexivity.
    - inversion Hok as [|? ? Hg Hr]; subst. cbn [fill_of fold_right] in Hfit. fold (fill_of r) in Hfit.
      pose proof (count_fill r Hr) as Hnn. rewrite (submit_more s g b Hg Hc Hm) by lia.
      exact (IH (with_fa s (wake22 (set_fmpg (fa s) [(h, acc_buf b g)]))) (acc_buf b g) Hr Hc eq_refl Ea ltac:(cbn [acc_buf m_fill]; lia)).
  Qed.

  (* the buffer after further submissions: the groups in order, the earliest of the deadlines, which lies ahead *)
  Lemma buffer_after : forall l b x, Forall subm_ok l -> m_deadline b = t0 + x -> 0 < x ->
    m_cpgs (fold_left acc_buf l b) = m_cpgs b ++ map cpg_of l /\
    m_deadline (fold_left acc_buf l b) = t0 + fold_left Z.min (map u_tl l) x /\ 0 < fold_left Z.min (map u_tl l) x.
  Proof.
    induction l as [|g r IH]; intros b x Hok Hb Hx; cbn [fold_left map]; [rewrite app_nil_r; repeat split; assumption|].
    inversion Hok as [|? ? (_ & _ & _ & _ & Htl) Hr]; subst.
    destruct (IH (acc_buf b g) (Z.min x (u_tl g)) Hr) as (Hc & Hd);
      [cbn [acc_buf m_deadline]; rewrite Hb; destruct (Z.gtb_spec (t0 + x) (t0 + u_tl g)); lia|lia|].
    split; [|exact Hd]. rewrite Hc. cbn [acc_buf m_cpgs]. rewrite <- app_assoc. reflexivity.
  Qed.

  Lemma packed_fill : forall l, Z.of_nat (packed_len (map cpg_of l)) = fill_of l.
  Proof.
    unfold packed_len. induction l as [|g r IH]; [reflexivity|].
    cbn [map concat fill_of fold_right]. fold (fill_of r). rewrite app_length, Nat2Z.inj_add, IH.
    unfold mpg_pack1. rewrite app_length. cbn [mpg_header length cpg_of g_data]. unfold len. lia.
  Qed.
  Lemma cpg_of_ok g : subm_ok g -> cpg_ok (cpg_of g) /\ 0 <= g_prio (cpg_of g) < 8.
  Proof.
    intros (Hdp & Hpf & Hp & Hl & _). split; [|exact Hp]. unfold cpg_ok, cpg_of. cbn [g_tos g_tf g_cpgn g_len g_data]. unfold len.
    repeat split; try reflexivity; lia.
  Qed.
  Lemma pmin_range : forall (l : list cpg) p, 0 <= p < 8 -> Forall (fun c => 0 <= g_prio c < 8) l ->
    0 <= fold_left (fun p c => Z.min (g_prio c) p) l p < 8.
  Proof.
    induction l as [|c r IH]; intros p Hp Hl; cbn [fold_left]; [exact Hp|].
    inversion Hl as [|? ? Hc Hr]; subst. apply IH; [lia|exact Hr].
  Qed.

  (* a listener that accepts the destination takes a multi-PG frame apart into its groups *)
  Lemma hB_mpg b c prio fr (l : list cpg) k : 0 <= prio < 8 -> accepts (base b) ps = true ->
    f_id fr = mpg_feff_id prio ps sa -> f_data fr = concat (map mpg_pack1 l) ++ mpg_padding k 0 ->
    Forall cpg_ok l -> (length l < 70)%nat ->
    handle22 b c fr = (b, group_deliveries b prio sa ps (map grp_of l)).
  Proof.
    intros Hp Hacc Hid Hdata Hok Hlen. unfold handle22. rewrite Hid, Hdata.
    change (mpg_feff_id prio ps sa) with (mid_can_id_of prio (pgn_value_of 0 37 ps) sa).
    rewrite notify22_pdu1, Hacc by lia. change (37 * 256 =? pgn_FEFF_MULTI_PG) with true. cbv iota.
    pose proof (process_multi_pg_is_unpack 70 prio sa ps (concat (map mpg_pack1 l) ++ mpg_padding k 0) b) as H.
    (* TRAP: the equation is rewritten in the hypothesis and met through [letfst]; a [destruct (flat22 (process_multi_pg 70 ..))]
       or a [rewrite <- unpack_pack] in the goal makes coqc diverge *)
    rewrite unpack_pack in H by assumption. etransitivity; [apply letfst|exact H].
  Qed.
  Lemma txs_group_deliveries m prio gl : txs (group_deliveries m prio sa ps gl) = [].
  Proof.
    unfold group_deliveries. induction gl as [|g r IH]; [reflexivity|]. cbn [map concat]. rewrite txs_app, txs_deliveries, IH. reflexivity.
  Qed.
  Lemma evs_group_deliveries m prio gl : evs (group_deliveries m prio sa ps gl) = group_deliveries m prio sa ps gl.
  Proof.
    unfold group_deliveries. induction gl as [|g r IH]; [reflexivity|]. cbn [map concat]. rewrite evs_app, evs_deliveries, IH. reflexivity.
  Qed.

  (* the one frame: groups that fit are packed into it, under the smallest of their priorities, and every listener that
     accepts the destination gets exactly these groups out of it *)
  Lemma frame_of l : Forall subm_ok l -> fill_of l <= 64 ->
    let cs := map cpg_of l in
    exists fr, send_multi_pg ff_FEFF cs sa ps = Some fr /\
      forall b c, accepts (base b) ps = true ->
        handle22 b c fr = (b, group_deliveries b (fold_left (fun p c => Z.min (g_prio c) p) cs 7) sa ps (map grp_of cs)).
  Proof.
    intros Hok Hfit cs. pose proof (packed_fill l) as Hpl. pose proof (count_fill l Hok) as Hn. fold cs in Hpl.
    destruct (frame_shape ff_FEFF cs sa ps ltac:(lia)) as (fr & v & Hfr & _ & Hdata & _ & _ & _ & _ & _ & Hid).
    destruct (Hid ltac:(discriminate)) as (_ & Hid').
    exists fr. split; [exact Hfr|]. intros b c Hacc. refine (hB_mpg b c _ fr cs _ _ Hacc Hid' Hdata _ _).
    - apply pmin_range; [lia|]. apply Forall_map, (Forall_impl _ (fun g H => proj2 (cpg_of_ok g H)) Hok).
    - apply Forall_map, (Forall_impl _ (fun g H => proj1 (cpg_of_ok g H)) Hok).
    - unfold cs. rewrite map_length. lia.
  Qed.

  (* the network while the buffer waits and goes out: A has node a, B is untouched and has sent nothing *)
  Definition net (a : node22) (q : list frame) (c : Z) (ev : list out) (w : list frame) : net22 :=
    {| fa := a; fb := B0; pa := []; pb := q; fclk := c; eva2 := []; evb2 := ev; wab2 := w; wba2 := [] |}.

  (* nothing is due: the clock moves on to the buffer's deadline *)
  Lemma M_wait a b : envA a -> f_mpg a = [(h, b)] -> t0 < m_deadline b < t0 + 5000000 ->
    step22 (net a [] t0 [] []) = net a [] (m_deadline b) [] [].
  Proof.
    intros (As & Ar & At) M Hd. destruct HB as (Bs & Br & Bm & Bt & _).
    rewrite (step22_idle (net a [] t0 [] [])) by reflexivity. cbn [net fa fb fclk eva2 evb2 wab2 wba2].
    rewrite (job22_mpg_wait a t0 h b Ar As At M (proj1 Hd)), minw_deadline, (job22_idle B0 t0 Br Bm Bs Bt) by lia.
    cbn [txs flat_map evs filter sleep_of andb app]. rewrite !Z.eqb_refl. cbn [andb]. unfold net. f_equal. lia.
  Qed.
  (* the deadline has come: the frame leaves and the buffer is gone *)
  Lemma M_send a b c fr : envA a -> f_mpg a = [(h, b)] -> m_deadline b <= c -> send_multi_pg ff_FEFF (m_cpgs b) sa ps = Some fr ->
    step22 (net a [] c [] []) = net (set_fmpg a []) [fr] c [] [fr].
  Proof.
    intros (As & Ar & At) M Hd Hfr. destruct HB as (Bs & Br & Bm & Bt & _).
    refine (step22_sends (net a [] c [] []) _ [OTx fr] _ B0 [] _ eq_refl eq_refl _ (job22_idle B0 c Br Bm Bs Bt) ltac:(discriminate)).
    apply (job22_mpg_due a c h b fr Ar As At M Hd). unfold h. rewrite unhash_hash by (unfold ff_FEFF; lia). exact Hfr.
  Qed.
  Lemma M_takes a c f os w : handle22 B0 c f = (B0, os) -> txs os = [] -> step22 (net a [f] c [] w) = net a [] c (evs os) w.
  Proof. intros E Ht. rewrite (step22_b (net a [f] c [] w) f []) by reflexivity. cbn [net fb fclk]. rewrite E, Ht. reflexivity. Qed.

  Section Run.
    Hypothesis Hok : Forall subm_ok (g0 :: gs).
    Hypothesis Hfits : fill_of (g0 :: gs) <= 64.
    Let D := fold_left Z.min (map u_tl gs) (u_tl g0).
    Hypothesis HD : D < 5000000.
    Let B := fold_left acc_buf gs (buf1 g0).
    Let s0 := fold_left (net22_submit sa ps) (g0 :: gs) (net22_0 A0 B0 t0).
    Let cs := map cpg_of (g0 :: gs).
    Let pmin := fold_left (fun p c => Z.min (g_prio c) p) cs 7.

    Lemma s0_shape : exists a, envA a /\ f_mpg a = [(h, B)] /\ s0 = net a [] t0 [] [].
    Proof.
      destruct HA as (As & Ar & Am & At). unfold s0. cbn [fold_left].
      rewrite (submit_first (net22_0 A0 B0 t0) g0 (Forall_inv Hok) eq_refl Am).
      cbn [fill_of fold_right] in Hfits. fold (fill_of gs) in Hfits.
      exact (submit_all gs (with_fa (net22_0 A0 B0 t0) (wake22 (set_fmpg A0 [(h, buf1 g0)]))) (buf1 g0) (Forall_inv_tail Hok) eq_refl eq_refl
               (conj As (conj Ar At)) ltac:(cbn [buf1 m_fill]; lia)).
    Qed.

    (* T11.10: the multi-PG closed loop *)
    Theorem mpg_closed_loop_delivers : exists fr, send_multi_pg ff_FEFF cs sa ps = Some fr /\
      let s := steps22 3 s0 in
      pa s = [] /\ pb s = [] /\ f_mpg (fa s) = [] /\ f_snd (fa s) = [] /\ f_rcv (fa s) = [] /\ fb s = B0 /\
      evb2 s = concat (map (fun g => deliveries (base B0) pmin (u_dp g * 65536 + u_pf g * 256) sa ps (u_dat g)) (g0 :: gs)) /\
      wab2 s = [fr] /\
      tlog22 3 s0 = [(t0 + D, fr)].
    Proof using Hsa Hps Ht0 HA HB Hok Hfits HD.
      destruct s0_shape as (a & Ea & M & E0). pose proof Ea as (As & Ar & At). destruct HB as (_ & _ & _ & _ & Bacc).
      destruct (buffer_after gs (buf1 g0) (u_tl g0) (Forall_inv_tail Hok) eq_refl) as (Hcs & Hdl & Ht); [apply (Forall_inv Hok)|].
      change (m_cpgs B = cs) in Hcs. change (m_deadline B = t0 + D) in Hdl. fold D in Ht.
      destruct (frame_of (g0 :: gs) Hok Hfits) as (fr & Hfr & Htake). fold cs pmin in Hfr, Htake.
      exists fr. split; [exact Hfr|]. rewrite <- Hcs in Hfr. rewrite <- Hdl, E0. cbv zeta. cbn [steps22 tlog22].
      (* the buffer waits for its deadline, the frame leaves, B takes it apart *)
      rewrite (M_wait a B Ea M) by lia. rewrite (M_send a B _ fr Ea M (Z.le_refl _) Hfr).
      rewrite (M_takes _ _ fr _ [fr] (Htake B0 _ Bacc) (txs_group_deliveries _ _ _)), evs_group_deliveries.
      rewrite (newtx22_same (net a [] t0 [] [])), (newtx22_snoc _ _ [fr]), newtx22_same by reflexivity.
      repeat split; try reflexivity; try assumption. unfold group_deliveries, cs. rewrite !map_map. reflexivity.
    Qed.
  End Run.
End MpgLoop.

Example mpg_closed_loop_instance :
  let A := init_node22 3 None None in
  let B := sub22 (init_node22 2 None None) 7 (FAddr 144) in
  let g1 := {| u_dp := 0; u_pf := 239; u_prio := 6; u_dat := [1; 2; 3]; u_tl := 20000 |} in
  let g2 := {| u_dp := 1; u_pf := 18; u_prio := 3; u_dat := map Z.of_nat (seq 1 40); u_tl := 5000 |} in
  let s0 := fold_left (net22_submit 128 144) [g1; g2] (net22_0 A B 1000) in
  let s := steps22 3 s0 in
  evb2 s = [OCb 7 3 61184 128 [1; 2; 3]; OCb 7 3 70144 128 (map Z.of_nat (seq 1 40))] /\
  map fst (tlog22 3 s0) = [6000] /\ map (fun x => length (f_data (snd x))) (tlog22 3 s0) = [64%nat] /\ f_mpg (fa s) = [].
Proof. vm_compute. repeat split. Qed.
