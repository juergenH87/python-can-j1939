(* Dm14Proofs.v — C17/C18/C19: DM14 value conversion, frame layouts, busy guard, key gate. *)
From J1939 Require Import Base Dm14Model.
From J1939.gen Require Import Dm14Gen.

(* ---------------------------------------------------------------- T17.1 value conversion *)
Lemma le_bytes_length size : forall v, length (le_bytes size v) = size.
Proof. induction size as [|k IH]; intros v; cbn [le_bytes length]; [reflexivity|]. rewrite IH. reflexivity. Qed.

Lemma le_value_le_bytes size : forall v, 0 <= v < 2 ^ (8 * Z.of_nat size) -> le_value (le_bytes size v) = v.
Proof.
  induction size as [|k IH]; intros v H; cbn [le_bytes le_value]; [cbn in H; lia|].
  replace (8 * Z.of_nat (S k)) with (8 + 8 * Z.of_nat k) in H by lia. rewrite Z.pow_add_r in H by lia. change (2 ^ 8) with 256 in H.
  rewrite IH; lia.
Qed.

Lemma groups_concat (size : nat) : forall (vs : list Z),
  groups (length vs) size (values_to_bytes size vs) = map (le_bytes size) vs.
Proof.
  induction vs as [|v r IH]; [reflexivity|].
  unfold values_to_bytes in *. cbn [map concat length groups].
  rewrite firstn_app, le_bytes_length, Nat.sub_diag. cbn [firstn]. rewrite app_nil_r.
  rewrite firstn_all2 by (rewrite le_bytes_length; lia).
  rewrite skipn_app, le_bytes_length, Nat.sub_diag. cbn [skipn].
  rewrite skipn_all2 by (rewrite le_bytes_length; lia). cbn [app]. f_equal. exact IH.
Qed.

Lemma values_to_bytes_length size vs : length (values_to_bytes size vs) = (size * length vs)%nat.
Proof.
  unfold values_to_bytes. induction vs as [|v r IH]; cbn [map concat length]; [lia|].
  rewrite app_length, le_bytes_length, IH. lia.
Qed.

Theorem values_roundtrip (size : nat) vs :
  (0 < size)%nat -> Forall (fun v => 0 <= v < 2 ^ (8 * Z.of_nat size)) vs ->
  bytes_to_values size false (values_to_bytes size vs) = vs.
Proof.
  intros Hs Hr. unfold bytes_to_values. rewrite values_to_bytes_length.
  replace (size * length vs / size)%nat with (length vs) by (rewrite Nat.mul_comm, Nat.div_mul; lia).
  rewrite groups_concat, map_map.
  induction Hr as [|v r Hv _ IH]; [reflexivity|]. cbn [map]. rewrite IH. f_equal. apply le_value_le_bytes, Hv.
Qed.

Theorem signed_decode (size : nat) v :
  (0 < size)%nat -> 0 <= v < 2 ^ (8 * Z.of_nat size) ->
  decode size true (le_bytes size v) = if v >=? 2 ^ (8 * Z.of_nat size - 1) then v - 2 ^ (8 * Z.of_nat size) else v.
Proof.
  intros Hs Hv. unfold decode. rewrite le_value_le_bytes by assumption.
  assert ((0 <? Z.of_nat size) = true) as -> by lia. rewrite andb_true_r. reflexivity.
Qed.

(* ---------------------------------------------------------------- T17.2 DM14 / DM15 / DM16 layouts *)
(* byte 2 of DM14 and DM15: 1 + command or status at bits 3..1 + the direct bit at 4 *)
Lemma status_byte direct status : Z.shiftl direct 4 + Z.shiftl status 1 + 1 = direct * 16 + status * 2 + 1.
Proof. rewrite !shiftl_mul by lia. reflexivity. Qed.
Lemma status_of_byte direct status : 0 <= direct < 2 -> 0 <= status < 8 ->
  Z.land (Z.shiftr (direct * 16 + status * 2 + 1) 1) 7 = status.
Proof. intros Hd Hs. rewrite land_7, shiftr_div by lia. apply (field_at _ 1 _ direct); lia. Qed.
Lemma dm15_status_of_byte direct status b0 r : 0 <= direct < 2 -> 0 <= status < 8 ->
  dm15_status (b0 :: Z.shiftl direct 4 + Z.shiftl status 1 + 1 :: r) = status.
Proof. intros Hd Hs. unfold dm15_status, byte_at. cbn [nth]. rewrite status_byte. apply status_of_byte; assumption. Qed.
(* a 16-bit field sent as low byte, then the rest *)
Lemma hi_lo_bytes x : Z.shiftl (Z.shiftr x 8) 8 + Z.land x 255 = x.
Proof. rewrite land_255, shiftl_mul, shiftr_div by lia. rewrite Z.mul_comm. symmetry. apply Z.div_mod. lia. Qed.

Theorem dm14_layout oc direct cmd addr key :
  0 <= oc < 256 -> 0 <= direct < 2 -> 0 <= cmd < 8 -> 0 <= addr < 4294967296 -> 0 <= key < 65536 ->
  let d := dm14_payload oc direct cmd addr key in
  length d = 8%nat /\ dm14_object_count d = oc /\ dm14_command d = cmd /\ dm14_pointer_type d = direct /\
  dm14_direct d = direct /\ dm14_access_level d = key /\ le_value (firstn 4 (skipn 2 d)) = addr.
Proof.
  intros Ho Hd Hc Ha Hk. cbv zeta. unfold dm14_payload, le_bytes4. cbn [app length].
  unfold dm14_object_count, dm14_command, dm14_pointer_type, dm14_direct, dm14_access_level, byte_at. cbn [nth firstn skipn le_value].
  rewrite status_byte, hi_lo_bytes, land_15, land_1, !shiftr_div by lia. pow2_norm.
  repeat split; [lia | lia | lia |].
  etransitivity; [|exact (le4_join addr Ha)]. ring.
Qed.

Theorem dm15_error_layout direct oc error edcp :
  0 <= direct < 2 -> 0 <= error < 16777216 -> 0 <= edcp < 256 ->
  let d := dm15_SEND_ERROR direct 0 oc 0 error edcp in
  dm15_status d = dm15_status_FAILED /\ dm15_error d = error /\ dm15_edcp d = edcp.
Proof.
  intros Hd He Hp. cbv zeta. unfold dm15_SEND_ERROR. rewrite (dm15_status_of_byte direct 5) by lia.
  unfold dm15_error, dm15_edcp, byte_at. cbn [nth firstn skipn le_value].
  rewrite byte1, land_255, shiftr_div by lia. pow2_norm. repeat split. lia.
Qed.
Theorem dm15_seed_layout direct status seed :
  0 <= direct < 2 -> 0 <= status < 8 -> 0 <= seed < 65536 ->
  let d := dm15_WAIT_FOR_KEY direct status 0 seed 0 0 in
  dm15_seed d = seed /\ dm15_status d = status /\ dm15_length d = 0.
Proof.
  intros Hd Hs Hse. cbv zeta. unfold dm15_WAIT_FOR_KEY. rewrite dm15_status_of_byte by assumption.
  unfold dm15_seed, byte_at. cbn [nth]. rewrite hi_lo_bytes. repeat split.
Qed.
Theorem dm15_proceed_layout direct oc :
  0 <= direct < 2 -> 0 <= oc < 256 ->
  let d := dm15_SEND_PROCEED direct dm15_status_PROCEED oc 0 0 0 in
  dm15_length d = oc /\ dm15_status d = dm15_status_PROCEED /\ dm15_seed d = 65535.
Proof.
  intros Hd Ho. cbv zeta. unfold dm15_SEND_PROCEED. rewrite dm15_status_of_byte by (unfold dm15_status_PROCEED; lia).
  repeat split.
Qed.

(* pad: a short frame may arrive filled up to 8 bytes *)
Lemma dm16_extract_frame bytes pad :
  (length bytes <= 255)%nat -> ((7 < length bytes)%nat -> pad = []) -> dm16_extract (dm16_frame bytes ++ pad) = bytes.
Proof.
  intros H Hp. unfold dm16_frame, dm16_extract, dm16_single_frame_max. cbn [app].
  replace (Z.to_nat _) with (length bytes + 0)%nat.
  - rewrite firstn_app_2. cbn [firstn]. apply app_nil_r.
  - rewrite app_length. destruct (Z.of_nat (length bytes) >? 7) eqn:E; [rewrite Hp by lia; cbn [length]|]; lia.
Qed.
Theorem dm16_roundtrip bytes : (1 <= length bytes <= 255)%nat -> dm16_extract (dm16_frame bytes) = bytes.
Proof. intros H. rewrite <- (app_nil_r (dm16_frame bytes)). apply dm16_extract_frame; [lia|reflexivity]. Qed.

(* ---------------------------------------------------------------- T19.1 busy guard *)
Lemma list_eqb_spec a b : reflect (a = b) (list_eqb a b).
Proof. unfold list_eqb. destruct (list_eq_dec Z.eq_dec a b); constructor; assumption. Qed.

Theorem intruder_gets_busy s r x data :
  v_sa s = Some r -> x <> r ->
  parse_dm14_decision s x data =
  Busy x (dm15_SEND_ERROR (dm14_direct data) dm15_status_FAILED (byte_at data 0) 0 (if v_error s =? 0 then 2 else v_error s) 7).
Proof.
  intros Hs Hx. unfold parse_dm14_decision, busy_guard, busy_answer. rewrite Hs.
  assert ((x =? r) = false) as -> by lia. reflexivity.
Qed.
Theorem other_pointer_gets_busy s a x data :
  v_addr s = Some a -> firstn 4 (skipn 2 data) <> a ->
  exists p, parse_dm14_decision s x data = Busy x p.
Proof.
  intros Ha Hn. unfold parse_dm14_decision, busy_guard, busy_answer. rewrite Ha.
  destruct (list_eqb_spec a (firstn 4 (skipn 2 data))) as [E|_]; [symmetry in E; contradiction|].
  cbn [negb]. rewrite orb_true_r. cbn [orb]. eexists. reflexivity.
Qed.
(* the answer is a DM15 "operation failed" with error 2 = busy (unless an error is pending), EDCP 7 *)
Theorem busy_answer_is_failed_busy s x data :
  v_error s = 0 -> 0 <= dm14_direct data < 2 ->
  let p := snd (busy_answer s x data) in
  dm15_status p = dm15_status_FAILED /\ dm15_error p = 2 /\ dm15_edcp p = 7 /\ fst (busy_answer s x data) = x.
Proof.
  intros He Hd. cbv zeta. unfold busy_answer. rewrite He. cbn [Z.eqb fst snd].
  destruct (dm15_error_layout (dm14_direct data) (byte_at data 0) 2 7 Hd ltac:(lia) ltac:(lia)) as (A & B & C0).
  unfold dm15_SEND_ERROR in *. repeat split; assumption.
Qed.
Theorem legitimate_request_accepted s r a data :
  v_sa s = Some r -> v_addr s = Some a -> firstn 4 (skipn 2 data) = a -> v_busy s = false ->
  parse_dm14_decision s r data = Accept.
Proof.
  intros Hs Ha Hd Hb. unfold parse_dm14_decision, busy_guard. rewrite Hs, Ha, Hb, Z.eqb_refl.
  destruct (list_eqb_spec a (firstn 4 (skipn 2 data))) as [_|E]; [reflexivity|symmetry in Hd; contradiction].
Qed.

(* ---------------------------------------------------------------- T18.1 key gate *)
Theorem key_gate_spec f seed key :
  (key_gate f seed key = ToApplication <-> key = f seed) /\
  (key <> f seed -> key_gate f seed key = InvalidKey 4099).
Proof.
  unfold key_gate. destruct (Z.eqb_spec (f seed) key); repeat split; congruence.
Qed.

Example dm14_example :
  bytes_to_values 2 true (values_to_bytes 2 [0x1234; 0xFFFE]) = [0x1234; -2] /\
  dm14_payload 1 1 1 0x92000003 7 = [1; 19; 3; 0; 0; 146; 7; 0].
Proof. vm_compute. split; reflexivity. Qed.
