(* ClaimProofs.v — C04/C13: address claiming.
   Part 1: pure per-CA step functions and their tie to the node-level handlers of Model21
           (claim_async, process_addressclaim).
   Part 2: a network of ANY number of CAs with FIFO queues per receiver and ANY schedule of
           timer firings and deliveries: conflict invariant, uniqueness at quiescence, lowest NAME keeps,
           loser behaviour, yield measure. *)
From J1939 Require Import Base CodecGlue Model21.
From J1939.gen Require Import Codec Tp21Gen CaGen.
From J1939P Require Import CodecProofs Flat.

(* ---------------------------------------------------------------- Part 1: pure steps *)
Definition msg := (Z * Z)%type.                  (* source address, NAME value *)

Definition immediate (a : Z) : bool := negb ((a >? 127) && (a <? 248)).

(* _process_claim_async: new CA state, claim broadcast (if any), re-arm delay *)
Definition ca_timer (c : ca) : ca * list msg * Z :=
  if c_state c =? ca_state_NONE then
    match c_pref c with
    | Some p =>
        if (p >? 127) && (p <? 248)
        then (with_ca_state c ca_state_WAIT_VETO (c_addr c) p, [(p, c_name c)], ca_VETO)
        else (with_ca_state c ca_state_NORMAL (Some p) p, [(p, c_name c)], 500000)
    | None => (c, [], 500000)
    end
  else if c_state c =? ca_state_WAIT_VETO then
    (with_ca_state c ca_state_NORMAL (Some (c_ann c)) (c_ann c), [], 500000)
  else (c, [], 500000).

(* _process_addressclaim *)
Definition awaiting (c : ca) (sa : Z) : bool :=
  ((c_state c =? ca_state_NORMAL) && match c_addr c with Some a => sa =? a | None => false end) ||
  ((c_state c =? ca_state_WAIT_VETO) && (sa =? c_ann c)).

Definition ca_claim (c : ca) (m : msg) : ca * list msg :=
  let '(sa, other) := m in
  if negb (awaiting c sa) then (c, [])
  else if c_name c =? other then (c, [])
  else if c_name c >? other then
    if c_aac c =? 0
    then (with_ca_state c ca_state_CANNOT_CLAIM None (c_ann c), [(addr_NULL, c_name c)])
    else (with_ca_state c ca_state_WAIT_VETO (Some addr_NULL) (c_ann c + 1), [(c_ann c + 1, c_name c)])
  else if c_state c =? ca_state_NORMAL
       then (c, [(match c_addr c with Some a => a | None => addr_NULL end, c_name c)])
       else (c, [(c_ann c, c_name c)]).

Definition claim_frame (c : ca) (m : msg) : out := OTx (ca_address_claimed (fst m) (c_nbytes c)).

Lemma upd_nth_id {A} (l : list A) : forall i x, nth_error l i = Some x -> upd_nth l i x = l.
Proof.
  induction l as [|y r IH]; intros [|i] x H; cbn in *; try discriminate.
  - inversion H; reflexivity.
  - f_equal. apply IH. exact H.
Qed.
Lemma set_ca_id n i c : nth_error (n_cas n) i = Some c -> set_ca n i c = n.
Proof.
  intros H. unfold set_ca, set_cas. rewrite (upd_nth_id _ _ _ H). destruct n; reflexivity.
Qed.

Lemma no_outs {S R} (x : S * list out * R) : x = let '(s, os, r) := x in (s, [] ++ os, r).
Proof. destruct x as [[s os] r]. reflexivity. Qed.

Lemma claim_async_flat i now n k c :
  nth_error (n_cas n) i = Some c ->
  flat (claim_async i now n k) =
  let '(c', outs, tts) := ca_timer c in
  let n1 := add_timer (set_ca n i c') now tts (TClaim i) false in
  let '(s, os, r) := flat (k n1) in (s, map (claim_frame c') outs ++ os, r).
Proof.
  intros Hc. unfold claim_async, ca_timer. rewrite Hc. pose proof (set_ca_id n i c Hc) as Hid.
  destruct (c_state c =? ca_state_NONE).
  - destruct (c_pref c) as [p|].
    + destruct ((p >? 127) && (p <? 248)); reflexivity.
    + rewrite Hid. apply no_outs.
  - destruct (c_state c =? ca_state_WAIT_VETO); [|rewrite Hid]; apply no_outs.
Qed.

Lemma process_addressclaim_flat i sa data n k c :
  nth_error (n_cas n) i = Some c ->
  flat (process_addressclaim i sa data n k) =
  let '(c', outs) := ca_claim c (sa, name_value_f (name_ctor_bytes data)) in
  let '(s, os, r) := flat (k (set_ca n i c')) in (s, map (claim_frame c') outs ++ os, r).
Proof.
  intros Hc. unfold process_addressclaim, ca_claim. rewrite Hc. fold (awaiting c sa).
  pose proof (set_ca_id n i c Hc) as Hid.
  destruct (awaiting c sa); cbn [negb]; [|rewrite Hid; apply no_outs].
  destruct (c_name c =? name_value_f (name_ctor_bytes data)); [rewrite Hid; apply no_outs|].
  destruct (c_name c >? name_value_f (name_ctor_bytes data)).
  - destruct (c_aac c =? 0); reflexivity.
  - destruct (c_state c =? ca_state_NORMAL); rewrite Hid; reflexivity.
Qed.

(* the NAME a receiver decodes from the 8 bytes a well-formed CA sends is that CA's NAME value (T15.5) *)
Definition ca_wf (c : ca) : Prop :=
  0 <= c_name c < 2 ^ 64 /\ name_value_f (name_ctor_value (c_name c)) = c_name c /\ c_nbytes c = name_bytes (c_name c).

Lemma mk_ca_wf v pref byp : 0 <= v < 2 ^ 64 -> ca_wf (mk_ca v pref byp).
Proof.
  intros Hv. destruct (T15_4_name_value_idempotent v Hv) as [Hr Hi].
  unfold mk_ca, ca_wf. destruct byp; destruct pref; cbn [c_name c_nbytes]; repeat split; try apply Hr; try exact Hi.
Qed.

Lemma decoded_name c : ca_wf c -> name_value_f (name_ctor_bytes (c_nbytes c)) = c_name c.
Proof.
  intros (Hr & Hi & Hb). rewrite Hb. rewrite T15_4_name_bytes_roundtrip by exact Hr. exact Hi.
Qed.

(* ---------------------------------------------------------------- Part 2: the network *)
Record net := { cas : nat -> ca; qs : nat -> list msg }.

Definition upd {A} (f : nat -> A) (i : nat) (v : A) : nat -> A := fun k => if Nat.eqb k i then v else f k.
Definition bcast (q : nat -> list msg) (i : nat) (m : msg) : nat -> list msg :=
  fun r => if Nat.eqb r i then q r else q r ++ [m].

Definition timer_step (n : net) (i : nat) : net :=
  let '(c', outs, _) := ca_timer (cas n i) in
  {| cas := upd (cas n) i c'; qs := fold_left (fun q o => bcast q i o) outs (qs n) |}.

Definition deliver_step (n : net) (r : nat) : net :=
  match qs n r with
  | [] => n
  | m :: rest =>
      let '(c', outs) := ca_claim (cas n r) m in
      {| cas := upd (cas n) r c'; qs := fold_left (fun q o => bcast q r o) outs (upd (qs n) r rest) |}
  end.

Inductive ev := Timer (i : nat) | Deliver (r : nat).
Definition step (n : net) (e : ev) : net :=
  match e with Timer i => timer_step n i | Deliver r => deliver_step n r end.

Definition Claims (c : ca) (a : Z) : Prop :=
  (c_state c = ca_state_NORMAL /\ c_addr c = Some a) \/ (c_state c = ca_state_WAIT_VETO /\ c_ann c = a).
Definition names_distinct (n : net) := forall i j, i <> j -> c_name (cas n i) <> c_name (cas n j).

Definition Inv (n : net) : Prop :=
  (forall i, c_state (cas n i) = ca_state_NORMAL -> c_addr (cas n i) = Some (c_ann (cas n i))) /\
  (forall i j a, i <> j -> Claims (cas n i) a -> Claims (cas n j) a ->
      In (a, c_name (cas n i)) (qs n j) \/ In (a, c_name (cas n j)) (qs n i)).

Lemma upd_same {A} (f : nat -> A) i v : upd f i v i = v.
Proof. unfold upd. now rewrite Nat.eqb_refl. Qed.
Lemma upd_other {A} (f : nat -> A) i v k : k <> i -> upd f i v k = f k.
Proof. unfold upd. intros. destruct (Nat.eqb_spec k i); congruence. Qed.
Lemma bcast_mono q i m r x : In x (q r) -> In x (bcast q i m r).
Proof. unfold bcast. destruct (Nat.eqb r i); auto. intros. apply in_or_app; auto. Qed.
Lemma bcast_in q i m r : r <> i -> In m (bcast q i m r).
Proof. unfold bcast. intros. destruct (Nat.eqb_spec r i); [congruence|]. apply in_or_app. right. left. reflexivity. Qed.
Lemma fold_bcast_grow outs : forall (q : nat -> list msg) r k v,
  In v (q k) -> In v (fold_left (fun q o => bcast q r o) outs q k).
Proof. induction outs as [|o os IH]; intros q r k v H; cbn; auto. apply IH. apply bcast_mono; auto. Qed.

Lemma state_consts : ca_state_NONE = 0 /\ ca_state_WAIT_VETO = 1 /\ ca_state_NORMAL = 2 /\ ca_state_CANNOT_CLAIM = 3.
Proof. repeat split; reflexivity. Qed.

Lemma awaiting_claims c sa : awaiting c sa = true <-> Claims c sa.
Proof.
  assert (H : match c_addr c with Some a => sa =? a | None => false end = true <-> c_addr c = Some sa).
  { destruct (c_addr c) as [a|]; [rewrite Z.eqb_eq; split; congruence|split; discriminate]. }
  unfold awaiting, Claims. rewrite orb_true_iff, !andb_true_iff, !Z.eqb_eq, H.
  split; (intros [G|[S A]]; auto).
Qed.

Lemma Claims_fun c a b : Claims c a -> Claims c b -> a = b.
Proof. intros [[S A]|[S A]] [[S' B]|[S' B]]; try (rewrite S in S'; discriminate S'); congruence. Qed.

(* [timer_case] and [claim_case] are views of ca_timer and ca_claim; the proofs below destruct ca_timer_view / ca_claim_view
   and never unfold the two functions *)
Inductive timer_case (c : ca) : ca * list msg * Z -> Prop :=
| TIdle : timer_case c (c, [], 500000)
| TVetoOver : c_state c = ca_state_WAIT_VETO ->
    timer_case c (with_ca_state c ca_state_NORMAL (Some (c_ann c)) (c_ann c), [], 500000)
| TClaimNow p : c_state c = ca_state_NONE ->
    timer_case c (with_ca_state c ca_state_NORMAL (Some p) p, [(p, c_name c)], 500000)
| TClaimVeto p : c_state c = ca_state_NONE ->
    timer_case c (with_ca_state c ca_state_WAIT_VETO (c_addr c) p, [(p, c_name c)], ca_VETO).

Lemma ca_timer_view c : timer_case c (ca_timer c).
Proof.
  unfold ca_timer. destruct (Z.eqb_spec (c_state c) ca_state_NONE) as [S0|_].
  - destruct (c_pref c) as [p|]; [|apply TIdle].
    destruct ((p >? 127) && (p <? 248)); [apply TClaimVeto|apply TClaimNow]; exact S0.
  - destruct (Z.eqb_spec (c_state c) ca_state_WAIT_VETO) as [S1|_]; [apply TVetoOver; exact S1|apply TIdle].
Qed.

Inductive claim_case (c : ca) (sa other : Z) : ca * list msg -> Prop :=
| CIgnore : (Claims c sa -> other = c_name c) -> claim_case c sa other (c, [])
| CDefend : Claims c sa -> c_name c < other -> claim_case c sa other (c, [(sa, c_name c)])
| CCannot : Claims c sa -> other < c_name c -> c_aac c = 0 ->
    claim_case c sa other (with_ca_state c ca_state_CANNOT_CLAIM None (c_ann c), [(addr_NULL, c_name c)])
| CNext : Claims c sa -> other < c_name c -> c_aac c <> 0 ->
    claim_case c sa other
      (with_ca_state c ca_state_WAIT_VETO (Some addr_NULL) (c_ann c + 1), [(c_ann c + 1, c_name c)]).

Lemma ca_claim_view c sa other : claim_case c sa other (ca_claim c (sa, other)).
Proof.
  unfold ca_claim. destruct (awaiting c sa) eqn:G; cbn [negb].
  2: { apply CIgnore. intros C. apply awaiting_claims in C. congruence. }
  apply awaiting_claims in G.
  destruct (Z.eqb_spec (c_name c) other) as [<-|N]; [apply CIgnore; reflexivity|].
  destruct (Z.gtb_spec (c_name c) other) as [L|L].
  - destruct (Z.eqb_spec (c_aac c) 0) as [A|A]; [apply CCannot|apply CNext]; assumption.
  - (* the address defended is, in either state, the one the claim was for *)
    replace (if c_state c =? ca_state_NORMAL then _ else _) with (c, [(sa, c_name c)]); [apply CDefend; [exact G|lia]|].
    destruct G as [[S A]|[S A]]; rewrite S, ?A; reflexivity.
Qed.

(* what the network argument needs of a step from c to c' that broadcasts outs: the NAME stays, an operational CA holds
   the address it announced, and an address the CA claims afterwards it either claimed before, and has stayed silent, or
   has just broadcast *)
Definition behaves (c c' : ca) (outs : list msg) : Prop :=
  c_name c' = c_name c /\
  ((c_state c = ca_state_NORMAL -> c_addr c = Some (c_ann c)) ->
   c_state c' = ca_state_NORMAL -> c_addr c' = Some (c_ann c')) /\
  forall a, Claims c' a -> (outs = [] /\ Claims c a) \/ outs = [(a, c_name c)].

Lemma ca_timer_behaves c c' outs tts : ca_timer c = (c', outs, tts) -> behaves c c' outs.
Proof.
  destruct (ca_timer_view c) as [|S|p S|p S]; intros [= <- <-]; (split; [reflexivity|]).
  - split; [auto|]. left. auto.
  - split; [reflexivity|]. intros a [[_ [= A]]|[S' _]]; [|discriminate S']. left. split; [reflexivity|]. right. split; assumption.
  - split; [reflexivity|]. intros a [[_ [= <-]]|[S' _]]; [|discriminate S']. right. reflexivity.
  - split; [intros _ S'; discriminate S'|]. intros a [[S' _]|[_ <-]]; [discriminate S'|]. right. reflexivity.
Qed.

Lemma ca_claim_behaves c sa other c' outs : ca_claim c (sa, other) = (c', outs) -> behaves c c' outs.
Proof.
  destruct (ca_claim_view c sa other) as [_|C _|_ _ _|_ _ _]; intros [= <- <-]; (split; [reflexivity|]).
  - split; [auto|]. left. auto.
  - split; [auto|]. intros a Ca. right. rewrite (Claims_fun c a sa Ca C). reflexivity.
  - split; [intros _ S; discriminate S|]. intros a [[S _]|[S _]]; discriminate S.
  - split; [intros _ S; discriminate S|]. intros a [[S _]|[_ <-]]; [discriminate S|]. right. reflexivity.
Qed.

Lemma silent_on_echo c sa other c' : ca_claim c (sa, other) = (c', []) -> Claims c sa -> other = c_name c.
Proof. destruct (ca_claim_view c sa other) as [H| | |]; intros [= _]; exact H. Qed.

Lemma name_upd (f : nat -> ca) i c' k : c_name c' = c_name (f i) -> c_name (upd f i c' k) = c_name (f k).
Proof. unfold upd. destruct (Nat.eqb_spec k i) as [->|_]; auto. Qed.

Lemma step_name n e k : c_name (cas (step n e) k) = c_name (cas n k).
Proof.
  destruct e as [i|r]; cbn [step].
  - unfold timer_step. destruct (ca_timer (cas n i)) as [[c' outs] tts] eqn:E.
    apply name_upd, (ca_timer_behaves _ _ _ _ E).
  - unfold deliver_step. destruct (qs n r) as [|[sa other] rest]; [reflexivity|].
    destruct (ca_claim (cas n r) (sa, other)) as [c' outs] eqn:E.
    apply name_upd, (ca_claim_behaves _ _ _ _ _ E).
Qed.

(* CA i becomes c' and broadcasts outs; q is what the step leaves of the queues, those of the others untouched.
   A conflict between two other CAs keeps its witness, the queues having only grown.  In a conflict of i with some y
   either c' has just announced the address to y, or (silent step) the old witness is still there: a claim of y
   waiting at i the caller shows to be left in q.  The conflict clause is symmetric in the two CAs, so the pair
   (i, y) also settles (y, i). *)
Lemma replace_preserves n i c' outs q :
  Inv n -> behaves (cas n i) c' outs ->
  (forall k, k <> i -> q k = qs n k) ->
  (outs = [] -> forall y a, y <> i -> Claims (cas n i) a ->
     In (a, c_name (cas n y)) (qs n i) -> In (a, c_name (cas n y)) (q i)) ->
  Inv {| cas := upd (cas n) i c'; qs := fold_left (fun q o => bcast q i o) outs q |}.
Proof.
  intros [I1 I2] (Hname & Hok & Hstep) Hq Hqi. set (q' := fold_left _ outs q).
  assert (Hi : forall y a, y <> i -> Claims c' a -> Claims (cas n y) a ->
                 In (a, c_name c') (q' y) \/ In (a, c_name (cas n y)) (q' i)).
  { intros y a Hy Cx Cy. rewrite Hname. subst q'. destruct (Hstep a Cx) as [[-> C]| ->]; cbn [fold_left].
    - rewrite (Hq y Hy). destruct (I2 i y a (not_eq_sym Hy) C Cy) as [W|W]; [left; exact W|right].
      apply Hqi; auto.
    - left. apply bcast_in. exact Hy. }
  assert (Grow : forall k v, k <> i -> In v (qs n k) -> In v (q' k)).
  { intros k v Hk Hin. apply fold_bcast_grow. rewrite (Hq k Hk). exact Hin. }
  split; cbn [cas qs].
  - intros k. unfold upd. destruct (Nat.eqb k i); [exact (Hok (I1 i))|apply I1].
  - intros x y a Hxy. destruct (Nat.eq_dec x i) as [->|Nx]; destruct (Nat.eq_dec y i) as [->|Ny].
    + contradiction.
    + rewrite upd_same, upd_other by exact Ny. apply Hi. exact Ny.
    + rewrite upd_same, upd_other by exact Nx. intros Cx Cy. apply or_comm. apply Hi; assumption.
    + rewrite !upd_other by assumption. intros Cx Cy.
      destruct (I2 x y a Hxy Cx Cy); [left|right]; apply Grow; assumption.
Qed.

Theorem timer_preserves n i : Inv n -> Inv (timer_step n i).
Proof.
  intros HI. unfold timer_step. destruct (ca_timer (cas n i)) as [[c' outs] tts] eqn:E.
  apply replace_preserves; [exact HI|exact (ca_timer_behaves _ _ _ _ E)|reflexivity|auto].
Qed.

Theorem deliver_preserves n r : names_distinct n -> Inv n -> Inv (deliver_step n r).
Proof.
  intros ND HI. unfold deliver_step. destruct (qs n r) as [|[sa other] rest] eqn:Eq; [exact HI|].
  destruct (ca_claim (cas n r) (sa, other)) as [c' outs] eqn:E.
  apply replace_preserves; [exact HI|exact (ca_claim_behaves _ _ _ _ _ E)|intros k Hk; apply upd_other; exact Hk|].
  intros -> y a Hy Ca W. rewrite upd_same. rewrite Eq in W. destruct W as [W|W]; [|exact W].
  (* the message consumed would be y's claim for a; r, claiming a, ignored it, so it carried r's own NAME *)
  injection W as -> ->. destruct (ND y r Hy). exact (silent_on_echo _ _ _ _ E Ca).
Qed.

Definition init_ok (n : net) := (forall i, c_state (cas n i) = ca_state_NONE) /\ (forall i, qs n i = []).
Lemma init_inv n : init_ok n -> Inv n.
Proof.
  intros [H1 H2]. split; intros.
  - rewrite H1 in H. discriminate.
  - destruct H0 as [[S _]|[S _]]; rewrite H1 in S; discriminate.
Qed.

Lemma step_nd n e : names_distinct n -> names_distinct (step n e).
Proof. intros ND i j Hij. rewrite !step_name. auto. Qed.

(* T04.1: the conflict invariant holds in every reachable state, for every schedule and any number of CAs *)
Theorem reachable_inv n evs : init_ok n -> names_distinct n ->
  Inv (fold_left step evs n) /\ names_distinct (fold_left step evs n).
Proof.
  intros Hi ND. assert (Inv n) as HI by (apply init_inv; auto). clear Hi.
  revert n ND HI. induction evs as [|e es IH]; intros n ND HI; cbn; [auto|].
  apply IH; [apply step_nd; auto|]. destruct e; cbn [step]; [apply timer_preserves|apply deliver_preserves]; auto.
Qed.

Theorem quiet_claims_disjoint n evs i j a :
  init_ok n -> names_distinct n -> i <> j ->
  let n' := fold_left step evs n in
  (forall k, qs n' k = []) -> Claims (cas n' i) a -> Claims (cas n' j) a -> False.
Proof.
  intros Hi ND Hij n' Hq Ci Cj. destruct (reachable_inv n evs Hi ND) as [[_ I2] _].
  destruct (I2 i j a Hij Ci Cj) as [W|W]; fold n' in W; rewrite Hq in W; destruct W.
Qed.

(* T04.2: once the bus is quiet no two operational CAs hold the same address *)
Theorem unique_at_quiescence n evs i j :
  init_ok n -> names_distinct n -> i <> j ->
  let n' := fold_left step evs n in
  (forall k, qs n' k = []) ->
  c_state (cas n' i) = ca_state_NORMAL -> c_state (cas n' j) = ca_state_NORMAL ->
  c_addr (cas n' i) <> c_addr (cas n' j).
Proof.
  intros Hi ND Hij n' Hq Si Sj Heq.
  destruct (reachable_inv n evs Hi ND) as [[I1 _] _]. pose proof (I1 i Si) as Ai. fold n' in Ai.
  apply (quiet_claims_disjoint n evs i j (c_ann (cas n' i)) Hi ND Hij Hq); left; (split; [assumption|]).
  - exact Ai.
  - exact (eq_trans (eq_sym Heq) Ai).
Qed.

(* T04.3: a CA leaves the address it claims only on a claim for that address with a strictly lower NAME *)
Theorem leaves_only_to_lower c m c' outs a :
  ca_claim c m = (c', outs) -> Claims c a -> ~ Claims c' a -> fst m = a /\ snd m < c_name c.
Proof.
  destruct m as [sa other]. cbn [fst snd].
  destruct (ca_claim_view c sa other) as [_|_ _|C L _|C L _]; intros [= <- _] Ca Hn.
  1, 2: contradiction.
  all: split; [exact (Claims_fun c sa a C Ca)|exact L].
Qed.

Theorem timer_keeps_claim c c' outs tts a : ca_timer c = (c', outs, tts) -> Claims c a -> Claims c' a.
Proof.
  destruct (ca_timer_view c) as [|S|p S|p S]; intros [= <- _] Ca.
  - exact Ca.
  - left. split; [reflexivity|].
    destruct Ca as [[S' _]|[_ <-]]; [rewrite S in S'; discriminate S'|reflexivity].
  - destruct Ca as [[S' _]|[S' _]]; rewrite S in S'; discriminate S'.
  - destruct Ca as [[S' _]|[S' _]]; rewrite S in S'; discriminate S'.
Qed.

(* T04.4: the loser, as the standard asks: not arbitrary-address-capable, cannot-claim from the null address; else a claim
   for the next address *)
Theorem loser_behaviour c sa other :
  awaiting c sa = true -> other < c_name c ->
  (c_aac c = 0 ->
     ca_claim c (sa, other) = (with_ca_state c ca_state_CANNOT_CLAIM None (c_ann c), [(addr_NULL, c_name c)])) /\
  (c_aac c <> 0 ->
     ca_claim c (sa, other) = (with_ca_state c ca_state_WAIT_VETO (Some addr_NULL) (c_ann c + 1), [(c_ann c + 1, c_name c)])).
Proof.
  intros G L. apply awaiting_claims in G. destruct (ca_claim_view c sa other) as [H|_ L'|_ _ A|_ _ A].
  - specialize (H G). lia.
  - lia.
  - split; [reflexivity|contradiction].
  - split; [contradiction|reflexivity].
Qed.

(* T04.5: every yield strictly increases the announced address (so a CA yields finitely often) *)
Theorem yield_increases c m c' outs :
  ca_claim c m = (c', outs) -> c_ann c' = c_ann c \/ (c_ann c' = c_ann c + 1 /\ c_state c' = ca_state_WAIT_VETO).
Proof.
  destruct m as [sa other].
  destruct (ca_claim_view c sa other); intros [= <- _]; [left|left|left|right; split]; reflexivity.
Qed.

(* non-vacuity: three CAs contending for address 200 on a concrete schedule *)
Definition ex_net : net :=
  {| cas := fun i => mk_ca (Z.of_nat i * 7 + 9223372036854775808 + 5) (Some 200) false; qs := fun _ => [] |}.
Example ex_contention :
  let n' := fold_left step [Timer 0; Timer 1; Deliver 0; Deliver 1; Timer 2; Deliver 0; Deliver 1; Deliver 2; Deliver 2;
                            Deliver 0; Deliver 1; Deliver 2; Deliver 0; Deliver 1; Timer 0; Timer 1; Timer 2;
                            Deliver 0; Deliver 1; Deliver 2] ex_net in
  map (fun i => c_ann (cas n' i)) [0; 1; 2]%nat = [200; 201; 202].
Proof. vm_compute. reflexivity. Qed.
