(* FilterProofs.v — C05 (J1939-21 layer and the ECU-level delivery rule / listener). *)
From J1939 Require Import Base CodecGlue Model21.
From J1939.gen Require Import Codec Tp21Gen CaGen.
From J1939P Require Import CodecProofs Flat.

(* T05.4: the listener forwards only extended data frames; everything a handler raises is contained *)
Theorem listener_filter n now id ext remote err data :
  listener n now id ext remote err data =
  if ext && negb remote && negb err then catch (notify n now id data) else Done n 0.
Proof. unfold listener. destruct ext, remote, err; reflexivity. Qed.

Lemma catch_never_raises (a : act node) : exists r, fres (catch a) = RDone r.
Proof.
  unfold fres. induction a as [s r|s e|s o k IH]; cbn [catch flat].
  - exists r. reflexivity.
  - exists 0. reflexivity.
  - destruct (IH s) as [r Hr]. destruct (flat (catch (k s))) as [[s' os] r']. cbn in *. exists r. exact Hr.
Qed.

Theorem listener_contains_exceptions n now id ext remote err data :
  exists r, fres (listener n now id ext remote err data) = RDone r.
Proof.
  rewrite listener_filter. destruct (ext && negb remote && negb err).
  - apply catch_never_raises.
  - exists 0. reflexivity.
Qed.

Theorem listener_drops_non_data_frames n now id ext remote err data :
  (ext = false \/ remote = true \/ err = true) ->
  flat (listener n now id ext remote err data) = (n, [], RDone 0).
Proof. intros H. unfold listener. destruct ext, remote, err; try reflexivity. destruct H as [H|[H|H]]; discriminate. Qed.

(* T05.2: which subscribers a message with destination dest reaches *)
Theorem delivery_rule n s dest :
  sub_matches n s dest = true <->
  match sb_filt s with
  | FNone => True
  | FAddr a => dest = addr_GLOBAL \/ dest = a
  | FCa i => dest = addr_GLOBAL \/
             exists c, nth_error (n_cas n) i = Some c /\ c_state c = ca_state_NORMAL /\ c_addr c = Some dest
  end.
Proof.
  unfold sub_matches. destruct (sb_filt s) as [|a|i].
  - tauto.
  - rewrite orb_true_iff, !Z.eqb_eq. tauto.
  - rewrite orb_true_iff, Z.eqb_eq. split.
    + intros [H|H]; [left; exact H|].
      destruct (nth_error (n_cas n) i) as [c|] eqn:E; [|discriminate].
      destruct (Z.eq_dec dest addr_GLOBAL) as [G|G]; [left; exact G|right].
      exists c. split; [reflexivity|]. unfold ca_acceptable in H.
      destruct (c_state c =? ca_state_NORMAL) eqn:Es; cbn [negb] in H; [|discriminate].
      assert ((dest =? addr_GLOBAL) = false) as Hg by lia. rewrite Hg in H.
      destruct (c_addr c) as [a|]; [|discriminate]. split; [lia|f_equal; lia].
    + intros [H|(c & Hc & Hs & Ha)]; [left; exact H|right].
      rewrite Hc. unfold ca_acceptable. rewrite Hs, Ha. cbn [Z.eqb negb].
      rewrite Z.eqb_refl. cbn [negb]. destruct (dest =? addr_GLOBAL); [reflexivity|apply Z.eqb_refl].
Qed.

Theorem no_address_nothing_specific n s i c dest :
  sb_filt s = FCa i -> nth_error (n_cas n) i = Some c -> c_state c <> ca_state_NORMAL -> dest <> addr_GLOBAL ->
  sub_matches n s dest = false.
Proof.
  intros Hf Hc Hs Hd. unfold sub_matches. rewrite Hf, Hc. unfold ca_acceptable.
  assert ((c_state c =? ca_state_NORMAL) = false) as -> by lia.
  assert ((dest =? addr_GLOBAL) = false) as -> by lia. reflexivity.
Qed.

(* T05.5: a bystander that accepts none of the destinations of a foreign exchange ends in its initial
   state having emitted nothing — for ANY sequence of PDU1 frames (RTS, CTS, DT, abort, requests, data) *)
Record pdu1 := { p_prio : Z; p_pf : Z; p_dest : Z; p_sa : Z; p_data : list Z; p_time : Z }.
Definition pdu1_ok (f : pdu1) : Prop :=
  0 <= p_prio f < 8 /\ 0 <= p_pf f < 240 /\ 0 <= p_dest f < 256 /\ 0 <= p_sa f < 256.
Definition feed_frame (st : node * list out) (f : pdu1) : node * list out :=
  let '(n', os, _) := flat (notify (fst st) (p_time f) (mid_can_id_of (p_prio f) (pgn_value_of 0 (p_pf f) (p_dest f)) (p_sa f)) (p_data f)) in
  (n', snd st ++ os).

Theorem bystander_untouched n frames :
  Forall pdu1_ok frames -> Forall (fun f => accepts n (p_dest f) = false) frames ->
  fold_left feed_frame frames (n, []) = (n, []).
Proof.
  intros Hok Hacc. induction frames as [|f r IH]; [reflexivity|].
  inversion Hok as [|? ? H1 H2]; inversion Hacc as [|? ? A1 A2]; subst.
  cbn [fold_left]. unfold feed_frame at 2. cbn [fst snd].
  destruct H1 as (Hp & Hf & Hd & Hs).
  rewrite notify_foreign by assumption. cbn [flat app]. apply IH; assumption.
Qed.

Example bystander_example :
  let n0 := subscribe (init_node 1 None None) 1 (FAddr 64) in
  accepts n0 65 = false /\ accepts n0 64 = true.
Proof. vm_compute. split; reflexivity. Qed.
