(* Tp21Resp.v — T01.3: the J1939-21 stack as RESPONDER of a connection-mode transfer, on the node-level handlers of
   Model21 (the listener of a broadcast is in Tp21Bam.v). *)
From J1939 Require Import Base CodecGlue Model21.
From J1939.gen Require Import Codec Tp21Gen CaGen.
From J1939P Require Import CodecProofs Flat Steps21 Tp21Seg.

(* The responder's next CTS border after k packets with window g is (k / g + 1) * g, capped by the number of packets n.
   These are the only facts about / and mod that the receive path needs; the proofs below use them by rewriting, so that
   the arithmetic left to [lia] is linear. *)
Lemma window_hit g k : 0 < g -> 0 <= k -> (k + 1) mod g = 0 -> (k / g + 1) * g = k + 1 /\ (k + 1) / g = k / g + 1.
Proof.
  intros Hg Hk Hm.
  pose proof (Z.div_mod (k + 1) g ltac:(lia)) as E. rewrite Hm in E.
  set (q := (k + 1) / g) in *.
  assert (1 <= q) by (destruct (Z_lt_le_dec q 1); [nia|lia]).
  assert (k / g = q - 1) as ->.
  { symmetry. apply Z.div_unique with (r := g - 1); [lia|nia]. }
  split; nia.
Qed.
Lemma window_miss g k : 0 < g -> 0 <= k -> (k + 1) mod g <> 0 -> (k + 1) / g = k / g /\ k + 1 < (k / g + 1) * g.
Proof.
  intros Hg Hk Hm.
  pose proof (Z.div_mod (k + 1) g ltac:(lia)) as E.
  pose proof (Z.mod_pos_bound (k + 1) g Hg) as B.
  set (q := (k + 1) / g) in *. set (r := (k + 1) mod g) in *.
  assert (k / g = q) as ->.
  { symmetry. apply Z.div_unique with (r := r - 1); [lia|nia]. }
  split; [reflexivity|nia].
Qed.
Lemma border_next g k n : 0 < g -> 0 <= k -> k + 1 < n -> (k + 1) mod g = 0 ->
  Z.min ((k / g + 1) * g) n = k + 1 /\ Z.min (((k + 1) / g + 1) * g) n = Z.min (k + 1 + g) n.
Proof.
  intros Hg Hk Hn Hm. destruct (window_hit g k Hg Hk Hm) as [H1 H2].
  rewrite H2. replace ((k / g + 1 + 1) * g) with ((k / g + 1) * g + g) by ring. rewrite H1.
  split; [apply Z.min_l; lia|reflexivity].
Qed.
Lemma border_stay g k n : 0 < g -> 0 <= k -> k + 1 < n -> (k + 1) mod g <> 0 ->
  k + 1 < Z.min ((k / g + 1) * g) n /\ (k + 1) / g = k / g.
Proof.
  intros Hg Hk Hn Hm. destruct (window_miss g k Hg Hk Hm) as [H1 H2].
  split; [apply Z.min_glb_lt; assumption|exact H1].
Qed.

Section Responder.
  Variables (prio sa dest pgn : Z) (p : list Z).
  Let h := tp21_hash sa dest.
  Let n_ := Z.of_nat (npk (length p)).

  (* what the standard asks of the responder for packets k .. n-1 with window g *)
  Fixpoint expect (n0 : node) (g : Z) (k cnt : nat) : list out :=
    match cnt with
    | O => []
    | S c =>
        (if Z.of_nat k + 1 =? n_
         then OTx (tp21_eom_ack dest sa (len p) n_ pgn) :: deliveries n0 prio pgn sa dest p
         else if (Z.of_nat k + 1) mod g =? 0
              then [OTx (tp21_cts dest sa (Z.min g (n_ - (Z.of_nat k + 1))) (Z.of_nat k + 2) pgn)]
              else [])
        ++ expect n0 g (S k) c
    end.

  Definition inv (g : Z) (k : nat) (b : rbuf) : Prop :=
    r_data b = segs p k /\ r_size b = len p /\ r_num b = n_ /\ r_maxrec b = Some g /\ r_pgn b = pgn /\
    r_next b = Z.min ((Z.of_nat k / g + 1) * g) n_.

  Definition same_env (n n' : node) : Prop :=
    n_subs n' = n_subs n /\ n_cas n' = n_cas n /\ n_snd n' = n_snd n /\ n_timers n' = n_timers n /\
    n_maxp n' = n_maxp n /\ n_cmdt_iv n' = n_cmdt_iv n /\ n_bam_iv n' = n_bam_iv n.
  Lemma same_env_set_rcv n t : same_env n (set_rcv n t).
  Proof. repeat split. Qed.
  Lemma same_env_wake n n' : same_env n n' -> same_env n (wake n').
  Proof. exact (fun H => H). Qed.

  Lemma border_hit g k : 0 < g -> 0 <= k -> (k + 1) mod g = 0 -> (k / g + 1) * g = k + 1 /\ (k + 1) / g = k / g + 1.
  Proof using sa dest p. exact (window_hit g k). Qed.
  Lemma border_miss g k : 0 < g -> 0 <= k -> (k + 1) mod g <> 0 -> (k + 1) / g = k / g /\ k + 1 < (k / g + 1) * g.
  Proof using sa dest p. exact (window_miss g k). Qed.

  Lemma expect_env n0 n1 g : n_subs n1 = n_subs n0 -> n_cas n1 = n_cas n0 ->
    forall cnt k, expect n1 g k cnt = expect n0 g k cnt.
  Proof.
    intros Hs Hc. induction cnt as [|c IHc]; intros k; [reflexivity|].
    cbn [expect]. f_equal; [|apply IHc].
    destruct (Z.of_nat k + 1 =? n_); [|reflexivity]. f_equal.
    apply deliveries_env; assumption.
  Qed.

  Hypothesis Hdest : dest <> addr_GLOBAL.

  Lemma responder_dt_step g (k : nat) n b t : 1 <= g <= n_ -> (k < npk (length p))%nat ->
    tget (n_rcv n) h = Some b -> inv g k b -> r_src b = sa -> r_dst b = dest ->
    exists n', flat (process_tp_dt prio sa dest (dt_payload p (Z.of_nat k)) t n) = (n', expect n g k 1, RDone 0) /\
               same_env n n' /\
               (if (S k =? npk (length p))%nat then n_rcv n' = tdel (n_rcv n) h
                else exists b', n_rcv n' = tset (n_rcv n) h b' /\ inv g (S k) b' /\ r_src b' = sa /\ r_dst b' = dest /\
                                t < r_deadline b').
  Proof.
    intros Hg Hk Hget (Hd & Hs & Hn & Hm & Hpg & Hb) Hsrc Hdst.
    cbn [expect]. rewrite app_nil_r, dt_payload_spec.
    assert (Hdata : r_data b ++ pad7 (seg7 p k) = segs p (S k)) by (rewrite Hd; reflexivity).
    set (kz := Z.of_nat k) in *. assert (Hkz : 0 <= kz) by apply Nat2Z.is_nonneg.
    destruct (Nat.eqb_spec (S k) (npk (length p))) as [E|NE].
    - rewrite (dt_last prio sa dest _ _ t n b Hget) by (rewrite Hdata, len_segs, Hs, E; apply npk_reach).
      rewrite Hdata, Hs, Hpg, Hn, E, segs_all, (eqb_false _ _ Hdest).
      replace (kz + 1 =? n_) with true by (unfold n_, kz; lia).
      eexists. split; [reflexivity|]. split; [apply same_env_wake, same_env_set_rcv|reflexivity].
    - assert (Hkn : kz + 1 < n_) by (unfold n_, kz; lia).
      assert (Hshort : len (r_data b ++ pad7 (seg7 p k)) < r_size b).
      { rewrite Hdata, len_segs, Hs. apply npk_short. lia. }
      replace (kz + 1 =? n_) with false by lia.
      (* shared by the two branches below, which differ only in the border and the deadline the handler stores *)
      assert (Hput : forall nx dl, nx = Z.min (((kz + 1) / g + 1) * g) n_ -> t < dl ->
                let n' := wake (set_rcv n (tset (n_rcv n) h (upd_rbuf b (r_data b ++ pad7 (seg7 p k)) nx dl))) in
                same_env n n' /\
                exists b', n_rcv n' = tset (n_rcv n) h b' /\ inv g (S k) b' /\ r_src b' = sa /\ r_dst b' = dest /\ t < r_deadline b').
      { intros nx dl -> Hdl. split; [apply same_env_wake, same_env_set_rcv|]. eexists. split; [reflexivity|].
        replace (kz + 1) with (Z.of_nat (S k)) by (unfold kz; lia). repeat split; assumption. }
      destruct (Z.eqb_spec ((kz + 1) mod g) 0) as [Hmod|Hmod].
      + destruct (border_next g kz n_ ltac:(lia) Hkz Hkn Hmod) as [Hbd Hnx]. rewrite <- Hb in Hbd.
        rewrite (dt_border prio sa dest _ _ t n b Hget g Hshort Hdest) by (rewrite ?Hbd; assumption || apply Z.le_refl).
        rewrite Hbd, Hn, Hpg.
        eexists. split; [replace (kz + 1 + 1) with (kz + 2) by ring; reflexivity|].
        apply Hput; [symmetry; exact Hnx|clear; unfold tp21_T2; lia].
      + destruct (border_stay g kz n_ ltac:(lia) Hkz Hkn Hmod) as [Hbd Hm1]. rewrite <- Hb in Hbd.
        rewrite (dt_quiet prio sa dest _ _ t n b Hget Hshort) by (right; exact Hbd).
        eexists. split; [reflexivity|]. apply Hput; [rewrite Hm1; exact Hb|clear; unfold tp21_T1; lia].
  Qed.

  Lemma same_env_trans n1 n2 n3 : same_env n1 n2 -> same_env n2 n3 -> same_env n1 n3.
  Proof.
    intros (A1 & A2 & A3 & A4 & A5 & A6 & A7) (B1 & B2 & B3 & B4 & B5 & B6 & B7).
    repeat split; etransitivity; eassumption.
  Qed.

  Variable now : nat -> Z.                       (* arrival instant of packet k: arbitrary *)

  Definition feed1 (k : nat) (n : node) : node * list out :=
    let '(n', os, _) := flat (process_tp_dt prio sa dest (dt_payload p (Z.of_nat k)) (now k) n) in (n', os).
  Fixpoint feed (cnt k : nat) (n : node) : node * list out :=
    match cnt with
    | O => (n, [])
    | S c => let '(n1, o1) := feed1 k n in let '(n2, o2) := feed c (S k) n1 in (n2, o1 ++ o2)
    end.

  Lemma feed_inv g : 1 <= g <= n_ ->
    forall cnt k n b, (k + cnt = npk (length p))%nat -> (0 < cnt)%nat ->
      tget (n_rcv n) h = Some b -> inv g k b -> r_src b = sa -> r_dst b = dest ->
      exists n', feed cnt k n = (n', expect n g k cnt) /\ n_rcv n' = tdel (n_rcv n) h /\ same_env n n'.
  Proof.
    intros Hg. induction cnt as [|c IH]; intros k n b Hk Hc Hget Hinv Hsrc Hdst; [lia|].
    destruct (responder_dt_step g k n b (now k) Hg ltac:(lia) Hget Hinv Hsrc Hdst) as (n1 & Hf & He & Hn1).
    cbn [feed]. unfold feed1. rewrite Hf. cbn [expect] in *. rewrite app_nil_r in Hf |- *.
    destruct (Nat.eqb_spec (S k) (npk (length p))) as [E|NE].
    - assert (c = 0%nat) as -> by lia. cbn [feed expect]. exists n1. repeat split; assumption || apply He.
    - destruct Hn1 as (b' & Hr1 & Hinv' & Hsrc' & Hdst' & _).
      destruct (IH (S k) n1 b' ltac:(lia) ltac:(lia)) as (n' & Hf' & Hr' & He'); try assumption.
      { rewrite Hr1. apply tget_tset_same. }
      rewrite Hf'. exists n'. split; [|split].
      + rewrite (expect_env n n1) by apply He. reflexivity.
      + rewrite Hr', Hr1. apply tdel_tset_same.
      + exact (same_env_trans _ _ _ He He').
  Qed.
End Responder.

Lemma rts_fields sa dest prio pgn size num limit :
  0 <= size < 65536 -> 0 <= pgn < 16777216 ->
  let d := f_data (tp21_rts sa dest prio pgn size num limit) in
  length d = 8%nat /\ tp21_cm_control d = tp21_cm_RTS /\ tp21_cm_pgn d = pgn /\
  tp21_rts_message_size d = size /\ tp21_rts_num_packages d = num /\ tp21_rts_max_num_packages d = limit.
Proof.
  intros Hs Hp. cbn [tp21_rts f_data]. unfold tp21_cm_control, tp21_cm_pgn, tp21_rts_message_size,
    tp21_rts_num_packages, tp21_rts_max_num_packages, byte_at. cbn [nth length].
  rewrite !land_255. rewrite !shiftr_div by lia. pow2_norm.
  repeat split; try reflexivity.
  - apply le24; lia.
  - apply le16; lia.
Qed.

Section ResponderTop.
  Variables (prio sa dest pgn limit : Z) (p : list Z) (t0 : Z) (now : nat -> Z).
  Hypothesis Hprio : 0 <= prio < 8.
  Hypothesis Hsa : 0 <= sa < 256.
  Hypothesis Hdest : 0 <= dest < 255.
  Hypothesis Hpgn : 0 <= pgn < 262144.
  Hypothesis Hlimit : 1 <= limit.
  Hypothesis Hsize : 8 < len p < 65536.
  Let h := tp21_hash sa dest.
  Let size := len p.
  Let num := Z.of_nat (npk (length p)).

  (* T01.3 (a): the RTS opens a session and is answered by CTS(g0, 1) *)
  Theorem responder_rts n :
    accepts n dest = true -> tget (n_rcv n) h = None -> 1 <= n_maxp n ->
    let g0 := Z.min (n_maxp n) (Z.min limit num) in
    let b0 := {| r_pgn := pgn; r_size := size; r_num := num; r_next := g0; r_maxrec := Some g0; r_data := [];
                 r_deadline := t0 + tp21_T2; r_src := sa; r_dst := dest |} in
    flat (notify n t0 (f_id (tp21_rts sa dest prio pgn size num limit)) (f_data (tp21_rts sa dest prio pgn size num limit)))
    = (wake (set_rcv n (tset (n_rcv n) h b0)), [OTx (tp21_cts dest sa g0 1 pgn)], RDone 0).
  Proof.
    intros Hacc Hnone Hmaxp g0 b0.
    assert (Hsz : 0 <= size < 65536) by (unfold size; lia).
    destruct (rts_fields sa dest prio pgn size num limit Hsz ltac:(lia)) as (L & C & P & S & N & M).
    cbn [tp21_rts f_id]. rewrite notify_tp_cm by (try assumption; lia).
    rewrite (cm_rts prio sa dest _ t0 n (Nat.eq_le_incl _ _ (eq_sym L)) C). cbv zeta. fold h.
    rewrite (tmem_none _ _ Hnone), P, S, N, M. reflexivity.
  Qed.

  Lemma dt_same_env prio' sa' dest' data t n :
    same_env n (fnode (process_tp_dt prio' sa' dest' data t n)) /\
    accepts (fnode (process_tp_dt prio' sa' dest' data t n)) dest = accepts n dest.
  Proof.
    assert (S : same_env n (fnode (process_tp_dt prio' sa' dest' data t n))).
    { destruct (tp_dt_shape prio' sa' dest' data t n) as (tb & _ & [-> | ->]);
        [|apply same_env_wake]; apply same_env_set_rcv. }
    split; [exact S|apply accepts_env; apply S].
  Qed.

  Definition dt_id := f_id (tp21_dt sa dest []).

  (* [feed] through notify, i.e. with the identifier parsed and the acceptance guard passed each time *)
  Definition feed1N (k : nat) (n : node) : node * list out :=
    let '(n', os, _) := flat (notify n (now k) dt_id (dt_payload p (Z.of_nat k))) in (n', os).
  Fixpoint feedN (cnt k : nat) (n : node) : node * list out :=
    match cnt with
    | O => (n, [])
    | S c => let '(n1, o1) := feed1N k n in let '(n2, o2) := feedN c (S k) n1 in (n2, o1 ++ o2)
    end.

  Lemma feedN_feed : forall cnt k n, accepts n dest = true ->
    feedN cnt k n = feed 7 sa dest p now cnt k n.
  Proof.
    induction cnt as [|c IH]; intros k n Hacc; [reflexivity|].
    cbn [feedN feed]. unfold feed1N, feed1, dt_id. cbn [tp21_dt f_id].
    rewrite notify_tp_dt by (try assumption; lia).
    destruct (dt_same_env 7 sa dest (dt_payload p (Z.of_nat k)) (now k) n) as [_ Ha].
    unfold fnode in Ha.
    destruct (flat (process_tp_dt 7 sa dest (dt_payload p (Z.of_nat k)) (now k) n)) as [[n1 o1] r1].
    cbn [fst] in Ha. rewrite IH by (rewrite Ha; exact Hacc). reflexivity.
  Qed.

  (* T01.3 (b): after the RTS, the canonical DT_1..DT_n (arriving at arbitrary instants) produce
     exactly: a CTS at every window border, the EndOfMsgACK and ONE delivery of p after the last;
     the receive table is as before the RTS; nothing else in the node changed. *)
  Theorem responder_dt_phase n :
    accepts n dest = true -> tget (n_rcv n) h = None -> 1 <= n_maxp n ->
    let g0 := Z.min (n_maxp n) (Z.min limit num) in
    let n1 := fnode (notify n t0 (f_id (tp21_rts sa dest prio pgn size num limit))
                             (f_data (tp21_rts sa dest prio pgn size num limit))) in
    exists n', feedN (npk (length p)) 0 n1 = (n', expect 7 sa dest pgn p n1 g0 0 (npk (length p))) /\
               n_rcv n' = tdel (n_rcv n1) h /\ same_env n1 n'.
  Proof.
    intros Hacc Hnone Hmaxp g0 n1.
    assert (Hn1 : n1 = wake (set_rcv n (tset (n_rcv n) h
              {| r_pgn := pgn; r_size := size; r_num := num; r_next := g0; r_maxrec := Some g0; r_data := [];
                 r_deadline := t0 + tp21_T2; r_src := sa; r_dst := dest |}))).
    { unfold n1, fnode. rewrite responder_rts by assumption. reflexivity. }
    assert (Hacc1 : accepts n1 dest = true).
    { rewrite Hn1. exact Hacc. }
    rewrite feedN_feed by exact Hacc1.
    assert (Hnum : 2 <= num) by (apply npk_two; lia).
    assert (Hg : 1 <= g0 <= Z.of_nat (npk (length p))) by (unfold g0; fold num; lia).
    eapply (feed_inv 7 sa dest pgn p ltac:(unfold addr_GLOBAL; lia) now g0 Hg).
    - lia.
    - fold num; lia.
    - rewrite Hn1. cbn [n_rcv wake set_rcv]. fold h. apply tget_tset_same.
    - unfold inv. cbn [r_data r_size r_num r_maxrec r_pgn r_next segs]. repeat split; try reflexivity.
      change (Z.of_nat 0) with 0. rewrite Z.div_0_l by lia. fold num. lia.
    - reflexivity.
    - reflexivity.
  Qed.
End ResponderTop.

(* non-vacuity: a 30-byte message, windows 3 (RTS limit) vs 2 (own maximum) *)
Example responder_example :
  let p := map Z.of_nat (seq 0 30) in
  let n0 := subscribe (init_node 2 None None) 1 (FAddr 32) in
  let n1 := fnode (notify n0 0 (f_id (tp21_rts 16 32 6 53248 30 5 3)) (f_data (tp21_rts 16 32 6 53248 30 5 3))) in
  length (snd (feedN 16 32 p (fun _ => 10) 5 0 n1)) = 4%nat /\ accepts n0 32 = true.
Proof. vm_compute. split; reflexivity. Qed.
