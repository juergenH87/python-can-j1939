(* FlowProofs.v — soundness of the pool-flow checker (FlowDefs.leakfree): if it accepts a skeleton then on EVERY path
   through it the function is never left (return, raise) while holding a session number that was neither handed to a
   stored session nor given back — whichever way the conditions turn out. *)
From J1939 Require Import Base FlowDefs.

Inductive outcome := Term (h : bool) | Fall (h : bool).

(* every path through a skeleton, from a holding state to an outcome; conditions are free *)
Inductive exec : fl -> bool -> outcome -> Prop :=
| XSkip h : exec FSkip h (Fall h)
| XEnd h : exec FEnd h (Term false)
| XRet h : exec FRet h (Term h)
| XRaise h : exec FRaise h (Term h)
| XStore h : exec FStore h (Fall false)
| XPut h : exec FPut h (Fall false)
| XMark h : exec FMark h (Fall true)
| XGetOk fail h : exec (FGet fail) h (Fall true)
| XGetFail fail h o : exec fail h o -> exec (FGet fail) h o
| XSeqT a b h hh : exec a h (Term hh) -> exec (FSeq a b) h (Term hh)
| XSeqF a b h h1 o : exec a h (Fall h1) -> exec b h1 o -> exec (FSeq a b) h o
| XAltL a b h o : exec a h o -> exec (FAlt a b) h o
| XAltR a b h o : exec b h o -> exec (FAlt a b) h o.

Definition covers (r : option bool) (o : outcome) : Prop :=
  match o with
  | Term hh => hh = false
  | Fall hh => exists hr, r = Some hr /\ (hh = true -> hr = true)
  end.

Lemma covers_merge_l ra rb o : covers ra o -> covers (merge ra rb) o.
Proof.
  destruct o as [hh|hh]; cbn; [auto|]. intros (hr & -> & H). destruct rb as [b|]; cbn.
  - exists (hr || b). split; [reflexivity|]. intros E. rewrite (H E). reflexivity.
  - exists hr. split; [reflexivity|exact H].
Qed.
Lemma merge_comm ra rb : merge ra rb = merge rb ra.
Proof. destruct ra as [a|], rb as [b|]; cbn; [rewrite orb_comm| | |]; reflexivity. Qed.
Lemma covers_merge_r ra rb o : covers rb o -> covers (merge ra rb) o.
Proof. rewrite merge_comm. apply covers_merge_l. Qed.

(* soundness, for an actual holding state below the one the checker assumed *)
Theorem leakfree_sound : forall t hc r, leakfree hc t = Some r ->
  forall ha o, (ha = true -> hc = true) -> exec t ha o -> covers r o.
Proof.
  intros t hc r H ha o Hle X. revert hc r H Hle.
  induction X as [h|h|h|h|h|h|h|fail h|fail h o _ IH|a b h hh _ IH|a b h h1 o _ IHa _ IHb|a b h o _ IH|a b h o _ IH];
    intros hc r H Hle; cbn [leakfree] in H.
  - injection H as <-. exists hc. split; [reflexivity|exact Hle].
  - reflexivity.
  - destruct hc; [discriminate|]. destruct h; [discriminate (Hle eq_refl)|reflexivity].
  - destruct hc; [discriminate|]. destruct h; [discriminate (Hle eq_refl)|reflexivity].
  - injection H as <-. exists false. split; [reflexivity|discriminate].
  - injection H as <-. exists false. split; [reflexivity|discriminate].
  - injection H as <-. exists true. split; [reflexivity|reflexivity].
  - destruct hc; [discriminate|]. destruct (leakfree false fail) as [rf|]; [|discriminate]. injection H as <-.
    apply (covers_merge_l (Some true) rf (Fall true)). exists true. split; reflexivity.
  - destruct hc; [discriminate|]. destruct (leakfree false fail) as [rf|] eqn:Ef; [|discriminate]. injection H as <-.
    apply (covers_merge_r (Some true) rf o). exact (IH false rf Ef Hle).
  - destruct (leakfree hc a) as [ra|] eqn:Ea; [|discriminate]. exact (IH hc ra Ea Hle).
  - destruct (leakfree hc a) as [ra|] eqn:Ea; [|discriminate].
    destruct (IHa hc ra Ea Hle) as (hr & -> & Hh). exact (IHb hr r H Hh).
  - destruct (leakfree hc a) as [ra|] eqn:Ea; [|discriminate]. destruct (leakfree hc b) as [rb|]; [|discriminate].
    injection H as <-. apply (covers_merge_l ra rb o). exact (IH hc ra Ea Hle).
  - destruct (leakfree hc a) as [ra|]; [|discriminate]. destruct (leakfree hc b) as [rb|] eqn:Eb; [|discriminate].
    injection H as <-. apply (covers_merge_r ra rb o). exact (IH hc rb Eb Hle).
Qed.

(* T10.6: a function whose skeleton the checker accepts never returns or raises while holding a session number that is
   neither owned by a stored session nor back in the pool — on any path, whatever its conditions evaluate to *)
Corollary flow_ok_no_leak t : flow_ok t = true -> forall hh, exec t false (Term hh) -> hh = false.
Proof.
  unfold flow_ok. destruct (leakfree false t) as [r|] eqn:E; [|discriminate]. intros _ hh X.
  exact (leakfree_sound t false r E false (Term hh) (fun H => H) X).
Qed.

(* the checker rejects the shape of the defect: a refusal after the number has been taken *)
Example flow_rejects_return_after_get :
  flow_ok (FSeq (FGet FRet) (FSeq (FAlt FRet FSkip) (FSeq FStore FRet))) = false /\
  flow_ok (FSeq (FGet FRet) (FSeq FStore FRet)) = true.
Proof. split; reflexivity. Qed.
