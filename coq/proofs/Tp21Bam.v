(* Tp21Bam.v — T01.5: broadcast (BAM) transfers of J1939-21, both roles, on the node-level handlers of Model21.
   Listener: the announcement opens a session; DT_1..DT_n, arriving at arbitrary instants, produce no frame and exactly
   one delivery of p, with the last packet, and the session is released.  Originator: job passes at or after the successive
   deadlines emit DT_1..DT_n, one per pass, each carrying dt_payload p k (the frames the listener theorem consumes), and
   release the session after DT_n. *)
From J1939 Require Import Base CodecGlue Model21.
From J1939.gen Require Import Codec Tp21Gen CaGen.
From J1939P Require Import CodecProofs Flat Steps21 Tp21Seg Tp21Resp.
Local Arguments Z.add : simpl never.
Local Arguments Z.sub : simpl never.
Local Arguments Z.mul : simpl never.

(* ---------------------------------------------------------------- listener *)
Section Listener.
  Variables (prio sa pgn : Z) (p : list Z).
  Let h := tp21_hash sa addr_GLOBAL.

  Definition inv_bam (k : nat) (b : rbuf) : Prop :=
    r_data b = segs p k /\ r_size b = len p /\ r_pgn b = pgn.

  Lemma bam_dt_step (k : nat) n b t : (k < npk (length p))%nat -> tget (n_rcv n) h = Some b -> inv_bam k b ->
    flat (process_tp_dt prio sa addr_GLOBAL (dt_payload p (Z.of_nat k)) t n) =
    if (S k =? npk (length p))%nat
    then (wake (set_rcv n (tdel (n_rcv n) h)), deliveries n prio pgn sa addr_GLOBAL p, RDone 0)
    else (wake (set_rcv n (tset (n_rcv n) h (upd_rbuf b (segs p (S k)) (r_next b) (t + tp21_T1)))), [], RDone 0).
  Proof.
    intros Hk Hget (Hd & Hs & Hpg). rewrite dt_payload_spec.
    assert (Hdata : r_data b ++ pad7 (seg7 p k) = segs p (S k)) by (rewrite Hd; reflexivity).
    destruct (Nat.eqb_spec (S k) (npk (length p))) as [E|NE].
    - rewrite (dt_last prio sa addr_GLOBAL _ _ t n b Hget) by (rewrite Hdata, len_segs, Hs, E; apply npk_reach).
      rewrite Hdata, Hs, Hpg, E, segs_all. reflexivity.
    - rewrite (dt_quiet prio sa addr_GLOBAL _ _ t n b Hget) by
        (try (left; reflexivity); rewrite Hdata, len_segs, Hs; apply npk_short; lia).
      rewrite Hdata. reflexivity.
  Qed.

  Variable now : nat -> Z.                       (* arrival instant of packet k: arbitrary *)

  Lemma bam_feed_inv : forall cnt k n b, (k + cnt = npk (length p))%nat -> (0 < cnt)%nat ->
      tget (n_rcv n) h = Some b -> inv_bam k b ->
      exists n', feed prio sa addr_GLOBAL p now cnt k n = (n', deliveries n prio pgn sa addr_GLOBAL p) /\
                 n_rcv n' = tdel (n_rcv n) h /\ same_env n n'.
  Proof.
    induction cnt as [|c IH]; intros k n b Hk Hc Hget Hinv; [lia|].
    cbn [feed]. unfold feed1. rewrite (bam_dt_step k n b (now k) ltac:(lia) Hget Hinv).
    destruct (Nat.eqb_spec (S k) (npk (length p))) as [E|NE].
    - assert (c = 0%nat) as -> by lia. cbn [feed]. rewrite app_nil_r.
      eexists. split; [reflexivity|]. split; [reflexivity|apply same_env_wake, same_env_set_rcv].
    - set (n1 := wake (set_rcv n _)).
      destruct (IH (S k) n1 _ ltac:(lia) ltac:(lia) (tget_tset_same _ _ _)) as (n' & Hf' & Hr' & He');
        [destruct Hinv as (_ & Hs & Hpg); repeat split; assumption|].
      rewrite Hf'. exists n'. split; [reflexivity|]. split; [rewrite Hr'; apply tdel_tset_same|].
      exact (same_env_trans _ _ _ (same_env_wake _ _ (same_env_set_rcv n _)) He').
  Qed.
End Listener.

(* T01.5 (listener), the announcement.  Nothing is assumed of the receive table: a session left over from an earlier
   broadcast of the same source is replaced *)
Theorem bam_announce_opens prio sa data now n :
  (8 <= length data)%nat -> tp21_cm_control data = tp21_cm_BAM ->
  let h := tp21_hash sa addr_GLOBAL in
  let b := {| r_pgn := tp21_cm_pgn data; r_size := tp21_bam_message_size data; r_num := tp21_bam_num_packages data; r_next := 1;
              r_maxrec := None; r_data := []; r_deadline := now + tp21_T1; r_src := sa; r_dst := addr_GLOBAL |} in
  fouts (process_tp_cm prio sa addr_GLOBAL data now n) = [] /\
  tget (n_rcv (fnode (process_tp_cm prio sa addr_GLOBAL data now n))) h = Some b.
Proof.
  intros Hl Hc h b. unfold fouts, fnode. rewrite (cm_bam prio sa addr_GLOBAL data now n Hl Hc).
  split; [reflexivity|]. cbn [flat fst]. nsimpl. apply tget_tset_same.
Qed.

(* T01.5 (listener): from the state the announcement creates, the n data packets give exactly one delivery of p and
   no frame *)
Theorem bam_listener_delivers prio sa pgn p now : forall n b,
  (8 < length p)%nat ->
  tget (n_rcv n) (tp21_hash sa addr_GLOBAL) = Some b -> r_data b = [] -> r_size b = len p -> r_pgn b = pgn ->
  exists n', feed prio sa addr_GLOBAL p now (npk (length p)) 0 n = (n', deliveries n prio pgn sa addr_GLOBAL p) /\
             n_rcv n' = tdel (n_rcv n) (tp21_hash sa addr_GLOBAL) /\ same_env n n'.
Proof.
  intros n b Hp Hget Hd Hs Hpg.
  apply (bam_feed_inv prio sa pgn p now (npk (length p)) 0 n b); [lia|pose proof (npk_two p); unfold len in *; lia|exact Hget|].
  unfold inv_bam. repeat split; assumption.
Qed.

(* ---------------------------------------------------------------- originator *)
Definition bam_pass (key now : Z) (n : node) : node * list out :=
  let '(n', os, _) := flat (snd_pass [key] now (now + 5000000) n (fun n1 _ => Done n1 0)) in (n', os).

Fixpoint bam_run (key : Z) (times : list Z) (n : node) : node * list out :=
  match times with
  | [] => (n, [])
  | t :: r => let '(n1, o1) := bam_pass key t n in let '(n2, o2) := bam_run key r n1 in (n2, o1 ++ o2)
  end.

Fixpoint dts_from (src dst : Z) (data : list Z) (x : Z) (cnt : nat) : list out :=
  match cnt with
  | O => []
  | S c => OTx (tp21_dt src dst (dt_payload data x)) :: dts_from src dst data (x + 1) c
  end.

Fixpoint late_enough (dl iv : Z) (times : list Z) : Prop :=
  match times with
  | [] => True
  | t :: r => dl <= t /\ late_enough (t + iv) iv r
  end.

(* T01.5 (originator) *)
Theorem bam_originator_sends_all key : forall (times : list Z) n b,
  tget (n_snd n) key = Some b -> s_state b = ST_SENDING_BM -> 0 < s_deadline b -> 0 < n_bam_iv n ->
  0 <= s_next b -> s_next b + Z.of_nat (length times) = s_num b -> (0 < length times)%nat ->
  late_enough (s_deadline b) (n_bam_iv n) times ->
  let '(n', os) := bam_run key times n in
  os = dts_from (s_src b) (s_dst b) (s_data b) (s_next b) (length times) /\
  n_snd n' = tdel (n_snd n) key.
Proof.
  induction times as [|t r IH]; intros n b Hget Hst Hdl Hiv Hx Hnum Hlen Hlate; [cbn in Hlen; lia|].
  cbn [bam_run length dts_from]. destruct Hlate as [Ht Hrest]. unfold bam_pass.
  destruct r as [|t2 r2]; cbn [length] in Hnum.
  - rewrite (snd_pass_due_bm_last key [] t _ n _ b Hget ltac:(lia) Ht Hst) by lia.
    split; reflexivity.
  - rewrite (snd_pass_due_bm key [] t _ n _ b Hget ltac:(lia) Ht Hst) by lia.
    cbn [snd_pass flat pre app].
    set (b' := upd_sbuf b ST_SENDING_BM (t + n_bam_iv n) (s_next b + 1)).
    specialize (IH (set_snd n (tset (n_snd n) key b')) b' (tget_tset_same _ _ _) eq_refl).
    cbn [b' upd_sbuf s_deadline s_next s_num s_src s_dst s_data length] in IH.
    specialize (IH ltac:(lia) Hiv ltac:(lia) ltac:(lia) ltac:(lia) Hrest).
    destruct (bam_run key (t2 :: r2) _) as [n2 o2]. destruct IH as [-> ->].
    split; [reflexivity|apply tdel_tset_same].
Qed.
