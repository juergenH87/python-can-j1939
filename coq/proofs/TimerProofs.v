(* TimerProofs.v — C12: add_timer, remove_timer, unsubscribe and the timer loop of
   ElectronicControlUnit._async_job_thread ([timer_pass]; the loop as repaired in /repo, which iterates
   over a copy of the registrations). *)
From J1939 Require Import Base CodecGlue Model21.
From J1939P Require Import Flat.

Lemma tcb_eqb_refl c : tcb_eqb c c = true.
Proof. destruct c; cbn; [apply Z.eqb_refl|apply Nat.eqb_refl]. Qed.
Lemma tcb_eqb_eq a b : tcb_eqb a b = true -> a = b.
Proof.
  destruct a, b; cbn; intros H; try discriminate.
  - f_equal. lia.
  - f_equal. apply Nat.eqb_eq. exact H.
Qed.
Lemma timer_eqb_refl t : timer_eqb t t = true.
Proof. unfold timer_eqb. rewrite !Z.eqb_refl, tcb_eqb_refl. reflexivity. Qed.
Lemma timer_eqb_cb a b : timer_eqb a b = true -> tm_cb a = tm_cb b.
Proof.
  unfold timer_eqb. intros H. apply andb_prop in H. destruct H as [H _].
  apply andb_prop in H. destruct H as [_ H]. apply tcb_eqb_eq. exact H.
Qed.

Lemma fold_remove_other cb : forall victims x r,
  (forall v, In v victims -> tm_cb v = cb) -> tm_cb x <> cb ->
  fold_left (fun l t => remove_first t l) victims (x :: r) =
  x :: fold_left (fun l t => remove_first t l) victims r.
Proof.
  induction victims as [|v vs IH]; intros x r Hv Hx; [reflexivity|].
  cbn [fold_left remove_first].
  assert (timer_eqb x v = false) as ->.
  { destruct (timer_eqb x v) eqn:E; [|reflexivity].
    apply timer_eqb_cb in E. exfalso. apply Hx. rewrite E. apply Hv. left. reflexivity. }
  apply IH; [intros w Hw; apply Hv; right; exact Hw|exact Hx].
Qed.

Lemma remove_all_is_filter cb : forall l,
  fold_left (fun l t => remove_first t l) (filter (fun t => tcb_eqb (tm_cb t) cb) l) l =
  filter (fun t => negb (tcb_eqb (tm_cb t) cb)) l.
Proof.
  induction l as [|x r IH]; [reflexivity|].
  cbn [filter]. destruct (tcb_eqb (tm_cb x) cb) eqn:E; cbn [negb].
  - cbn [fold_left remove_first]. rewrite timer_eqb_refl. exact IH.
  - rewrite fold_remove_other with (cb := cb).
    + rewrite IH. reflexivity.
    + intros v Hv. apply filter_In in Hv. destruct Hv as [_ Hv]. apply tcb_eqb_eq. exact Hv.
    + intros Hc. rewrite Hc, tcb_eqb_refl in E. discriminate.
Qed.

(* T12.4: remove_timer(cb) leaves no registration of cb, however many there were.  The model removes as Python
   does, by list.remove of each victim (first value-equal entry); remove_all_is_filter is why that is a filter *)
Theorem remove_timer_complete n cb :
  n_timers (remove_timer n cb) = filter (fun t => negb (tcb_eqb (tm_cb t) cb)) (n_timers n) /\
  (forall t, In t (n_timers (remove_timer n cb)) -> tm_cb t <> cb) /\
  n_wakes (remove_timer n cb) = n_wakes n + 1.
Proof.
  unfold remove_timer. cbn [n_timers wake set_timers n_wakes].
  rewrite remove_all_is_filter. split; [reflexivity|]. split; [|reflexivity].
  intros t Ht. apply filter_In in Ht. destruct Ht as [_ Ht]. intros Hc.
  rewrite Hc, tcb_eqb_refl in Ht. discriminate.
Qed.

Theorem unsubscribe_complete n cid :
  n_subs (unsubscribe n cid) = filter (fun s => negb (sb_cid s =? cid)) (n_subs n) /\
  (forall s, In s (n_subs (unsubscribe n cid)) -> sb_cid s <> cid).
Proof.
  unfold unsubscribe. cbn [n_subs set_subs]. split; [reflexivity|].
  intros s Hs. apply filter_In in Hs. destruct Hs as [_ Hs]. lia.
Qed.

Theorem add_timer_spec n now delta cb ret :
  n_timers (add_timer n now delta cb ret) =
    n_timers n ++ [{| tm_delta := delta; tm_cb := cb; tm_deadline := now + delta; tm_ret := ret; tm_id := n_nextid n |}] /\
  n_wakes (add_timer n now delta cb ret) = n_wakes n + 1.
Proof. unfold add_timer. cbn. split; reflexivity. Qed.

(* T12.3 no drift: [advance_deadline] is the closed form of 'while deadline <= now: deadline += delta_time';
   the new deadline is whole periods from the OLD one, not from now *)
Theorem advance_no_drift dl delta now :
  0 < delta -> dl <= now ->
  let dl' := advance_deadline dl delta now in
  (exists m, 1 <= m /\ dl' = dl + m * delta) /\ now < dl' <= now + delta.
Proof.
  intros Hd Hle. unfold advance_deadline.
  assert ((delta >? 0) && (dl <=? now) = true) as -> by lia.
  split.
  - exists ((now - dl) / delta + 1). split; [|ring].
    assert (0 <= (now - dl) / delta) by (apply Z.div_pos; lia). lia.
  - pose proof (Z.div_mod (now - dl) delta ltac:(lia)) as E.
    pose proof (Z.mod_pos_bound (now - dl) delta Hd) as B. nia.
Qed.

(* ---------------------------------------------------------------- T12.1 / T12.5: what one pass does with ONE
   registration, whatever else is registered: the pass is a fold over a snapshot of the registrations, so adding,
   expiring or removing one timer neither skips nor delays another. *)
Definition min_nw (nw dl : Z) : Z := if nw >? dl then dl else nw.

Lemma timer_in_self ev l : In ev l -> timer_in ev l = true.
Proof.
  intros H. unfold timer_in. apply existsb_exists. exists ev. split; [exact H|apply timer_eqb_refl].
Qed.

(* T12.1 not early *)
Theorem timer_not_early ev rest now nw n k :
  In ev (n_timers n) -> now < tm_deadline ev ->
  timer_pass (ev :: rest) now nw n k = timer_pass rest now (min_nw nw (tm_deadline ev)) n k.
Proof.
  intros Hin Hlt. cbn [timer_pass]. rewrite (timer_in_self _ _ Hin). cbn [negb].
  assert ((tm_deadline ev >? now) = true) as -> by lia. reflexivity.
Qed.

(* the local [after] of timer_pass with its free variables as arguments, so that statements can mention it *)
Definition timer_after (ev : timer) (rest : list timer) (now nw : Z) (k : node -> Z -> act node) (ret : bool) (n1 : node) :=
  if ret then
    let dl := advance_deadline (tm_deadline ev) (tm_delta ev) now in
    timer_pass rest now (min_nw nw dl) (set_timers n1 (upd_timer_deadline (n_timers n1) (tm_id ev) dl)) k
  else if timer_in ev (n_timers n1) then timer_pass rest now nw (set_timers n1 (remove_first ev (n_timers n1))) k
  else timer_pass rest now nw n1 k.

Lemma timer_pass_due ev rest now nw n k :
  In ev (n_timers n) -> tm_deadline ev <= now ->
  timer_pass (ev :: rest) now nw n k =
  match tm_cb ev with
  | TApp cid => Emit n (OTimer cid) (timer_after ev rest now nw k (tm_ret ev))
  | TClaim i => claim_async i now n (timer_after ev rest now nw k false)
  end.
Proof.
  intros Hin Hdue. cbn [timer_pass]. rewrite (timer_in_self _ _ Hin). cbn [negb].
  assert ((tm_deadline ev >? now) = false) as -> by lia. reflexivity.
Qed.

(* T12.5: a due registration is invoked once and the pass goes on with the rest of its snapshot *)
Theorem timer_periodic_fires ev cid rest now nw n k :
  In ev (n_timers n) -> tm_cb ev = TApp cid -> tm_ret ev = true -> tm_deadline ev <= now ->
  flat (timer_pass (ev :: rest) now nw n k) =
  let dl := advance_deadline (tm_deadline ev) (tm_delta ev) now in
  let '(s, os, r) := flat (timer_pass rest now (min_nw nw dl)
                             (set_timers n (upd_timer_deadline (n_timers n) (tm_id ev) dl)) k) in
  (s, OTimer cid :: os, r).
Proof. intros Hin Hcb Hret Hdue. rewrite (timer_pass_due _ _ _ _ _ _ Hin Hdue), Hcb, Hret. reflexivity. Qed.

Theorem timer_oneshot_fires ev cid rest now nw n k :
  In ev (n_timers n) -> tm_cb ev = TApp cid -> tm_ret ev = false -> tm_deadline ev <= now ->
  flat (timer_pass (ev :: rest) now nw n k) =
  let '(s, os, r) := flat (timer_pass rest now nw (set_timers n (remove_first ev (n_timers n))) k) in
  (s, OTimer cid :: os, r).
Proof.
  intros Hin Hcb Hret Hdue. rewrite (timer_pass_due _ _ _ _ _ _ Hin Hdue), Hcb, Hret.
  cbn [flat timer_after]. rewrite (timer_in_self _ _ Hin). reflexivity.
Qed.

Theorem timer_removed_not_called ev rest now nw n k :
  timer_in ev (n_timers n) = false ->
  timer_pass (ev :: rest) now nw n k = timer_pass rest now nw n k.
Proof. intros H. cbn [timer_pass]. rewrite H. reflexivity. Qed.

(* what T12.6 (the wake-up time is <= every deadline the pass saw) rests on *)
Lemma min_nw_le nw dl : min_nw nw dl <= nw /\ min_nw nw dl <= dl.
Proof. unfold min_nw. destruct (nw >? dl) eqn:E; lia. Qed.
Lemma min_nw_min a b : min_nw a b = Z.min a b.
Proof. exact (gtb_min a b). Qed.
Lemma min_nw_future now nw dl : now < nw -> now < dl -> now < min_nw nw dl.
Proof. unfold min_nw. destruct (nw >? dl); lia. Qed.

Definition ex_n0 : node :=
  add_timer (add_timer (init_node 1 None None) 0 1000 (TApp 1) true) 0 5000 (TApp 2) false.
Example timers_example_1 : fouts (job_iter ex_n0 1000) = [OTimer 1].
Proof. vm_compute. reflexivity. Qed.
Example timers_example_2 : fres (job_iter ex_n0 1000) = RDone 1000.
Proof. vm_compute. reflexivity. Qed.
Example timers_example_3 : fouts (job_iter ex_n0 5000) = [OTimer 1; OTimer 2].
Proof. vm_compute. reflexivity. Qed.
