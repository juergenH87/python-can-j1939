(* NoOversleep.v — C06/C09/C12 (J1939-21): the job thread never sleeps past a deadline.
   The wake-up time one pass of the transport layer hands on is not later than the deadline of ANY session that is still
   in a table after the pass, whatever its state (the timers are in NoOversleepTimers.v): so every deadline is served by a
   pass that starts at most the scheduling latency after it. *)
From J1939 Require Import Base CodecGlue Model21.
From J1939.gen Require Import Codec Tp21Gen CaGen.
From J1939P Require Import CodecProofs Flat Steps21 RobustProofs.

(* what the timer pass works on and the transport pass leaves alone *)
Definition tm_part (n : node) := (n_timers n, n_nextid n, n_wakes n).

(* A pass over distinct keys ends with a wake-up time that covers every session it has left in its table: the step lemmas of
   RobustProofs say so for the key at the head, later steps do not touch that key and only lower the wake-up time. *)
Lemma rcv_pass_cover P : forall keys now nw n k,
  NoDup keys -> tnodup (n_rcv n) ->
  (forall t' nw', covers (before r_deadline) (n_rcv n) nw keys t' nw' -> post P (k (set_rcv n t') nw')) ->
  post P (rcv_pass keys now nw n k).
Proof.
  induction keys as [|key ks IH]; intros now nw n k Hnd Htn Hk.
  - rewrite <- (set_rcv_same n). apply Hk, covers_nil.
  - inversion Hnd as [|? ? Hni Hnd']; subst. apply rcv_pass_step. intros t1 nw1 S1 _.
    apply IH; [exact Hnd'|apply S1, Htn|]. intros t' nw' C.
    apply Hk, (covers_cons (before_mono r_deadline) S1 Htn Hni C).
Qed.

Lemma snd_pass_cover P : forall keys now nw n k,
  NoDup keys -> tnodup (n_snd n) ->
  (forall t' nw', covers (before s_deadline) (n_snd n) nw keys t' nw' -> post P (k (set_snd n t') nw')) ->
  post P (snd_pass keys now nw n k).
Proof.
  induction keys as [|key ks IH]; intros now nw n k Hnd Htn Hk.
  - rewrite <- (set_snd_same n). apply Hk, covers_nil.
  - inversion Hnd as [|? ? Hni Hnd']; subst. apply snd_pass_step. intros t1 nw1 S1 _.
    apply IH; [exact Hnd'|apply S1, Htn|]. intros t' nw' C.
    apply Hk, (covers_cons (before_mono s_deadline) S1 Htn Hni C).
Qed.

Definition rcv_covered (n : node) (nw : Z) : Prop :=
  forall key b, tget (n_rcv n) key = Some b -> r_deadline b <> 0 -> nw <= r_deadline b.
Definition snd_covered (n : node) (nw : Z) : Prop :=
  forall key b, tget (n_snd n) key = Some b -> s_deadline b <> 0 -> nw <= s_deadline b.

(* T06.9 / T09.9: after one pass of the transport layer the wake-up time handed on is not later than the deadline of ANY
   receive or send session still open — whatever state it is in, whatever the pass did (time-outs, bursts, BAM packets) *)
Theorem dll_job_never_oversleeps P n now k :
  tnodup (n_rcv n) -> tnodup (n_snd n) ->
  (forall n' nw', nw' <= now + 5000000 -> tm_part n' = tm_part n -> rcv_covered n' nw' -> snd_covered n' nw' -> post P (k n' nw')) ->
  post P (dll_job n now k).
Proof.
  intros Hr Hs Hk. unfold dll_job.
  apply rcv_pass_cover; [exact Hr|exact Hr|]. intros t1 nw1 C1.
  apply snd_pass_cover; [exact Hs|exact Hs|]. intros t2 nw2 C2.
  pose proof (proj1 C1) as L1. pose proof (proj1 C2) as L2.
  apply Hk; [lia|reflexivity| |exact (covers_all C2)].
  intros key b Hg. exact (before_mono r_deadline _ _ b L2 (covers_all C1 Hg)).
Qed.

(* the same on the flat run of the pass alone (continuation = return the wake-up time); the form C06 and C09 cite *)
Corollary dll_job_wakeup_covers_every_deadline n now :
  tnodup (n_rcv n) -> tnodup (n_snd n) ->
  match flat (dll_job n now (fun n' nw' => Done n' nw')) with
  | (n', _, RDone nw') => nw' <= now + 5000000 /\ tm_part n' = tm_part n /\ rcv_covered n' nw' /\ snd_covered n' nw'
  | (_, _, RRaise _) => True
  end.
Proof.
  intros Hr Hs.
  apply (dll_job_never_oversleeps
           (fun n' nw' => nw' <= now + 5000000 /\ tm_part n' = tm_part n /\ rcv_covered n' nw' /\ snd_covered n' nw') n now
           (fun n' nw' => Done n' nw') Hr Hs).
  intros n' nw' L T R S. apply post_done. repeat split; try assumption.
Qed.
