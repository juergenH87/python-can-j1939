(* Base.v — what every file uses: frames, byte lists, the bit operations as arithmetic, the fields of a packed word,
   ordered tables.  No axioms.  Style: stdlib + lia. *)
From Coq Require Export ZArith List Bool Lia Arith ZifyBool ZifyNat.
Export ListNotations.
Open Scope Z_scope.
(* lia knows / and mod — in every file that imports this one, and every call pays for every quotient in its context:
   quotient facts are stated as closed lemmas (below) and used by rewriting, out of lia's sight *)
Ltac Zify.zify_post_hook ::= Z.div_mod_to_equations.

(* ------------------------------------------------------------------ frames *)
Record frame := { f_id : Z; f_ext : bool; f_fd : bool; f_data : list Z }.

Definition frame_eqb (a b : frame) : bool :=
  (f_id a =? f_id b) && Bool.eqb (f_ext a) (f_ext b) && Bool.eqb (f_fd a) (f_fd b)
  && (if list_eq_dec Z.eq_dec (f_data a) (f_data b) then true else false).

(* Python list subscript with a constant index.  The *handlers* of the model test the length
   first and raise IndexError; the generated field extractions are only used after that test,
   so the default is never observed (lemmas about them carry a length hypothesis). *)
Definition byte_at (l : list Z) (i : nat) : Z := nth i l 0.

Definition is_byte (b : Z) : Prop := 0 <= b < 256.
Definition bytes (l : list Z) : Prop := Forall is_byte l.
Definition is_byteb (b : Z) : bool := (0 <=? b) && (b <? 256).
Definition bytesb (l : list Z) : bool := forallb is_byteb l.

Lemma bytesb_spec l : bytesb l = true <-> bytes l.
Proof.
  unfold bytesb, bytes. rewrite forallb_forall, Forall_forall.
  split; intros H x Hx; specialize (H x Hx); unfold is_byteb, is_byte in *; lia.
Qed.

(* how both layers fold a deadline into the wake-up time *)
Lemma gtb_min a b : (if a >? b then b else a) = Z.min a b.
Proof. destruct (Z.gtb_spec a b); lia. Qed.

Fixpoint le_value (l : list Z) : Z :=
  match l with [] => 0 | b :: r => b + 256 * le_value r end.

(* ------------------------------------------------------------------ bit ops -> arithmetic *)
Lemma shiftl_mul a k : 0 <= k -> Z.shiftl a k = a * 2 ^ k.
Proof. intros; apply Z.shiftl_mul_pow2; assumption. Qed.
Lemma shiftr_div a k : 0 <= k -> Z.shiftr a k = a / 2 ^ k.
Proof. intros; apply Z.shiftr_div_pow2; assumption. Qed.
Lemma land_ones_mod a k : 0 <= k -> Z.land a (Z.ones k) = a mod 2 ^ k.
Proof. intros; apply Z.land_ones; assumption. Qed.

Lemma land_mul_pow2_small a b k : 0 <= k -> 0 <= b < 2 ^ k -> Z.land (a * 2 ^ k) b = 0.
Proof.
  intros Hk Hb. apply Z.bits_inj'. intros n Hn.
  rewrite Z.land_spec, Z.bits_0.
  destruct (Z.lt_ge_cases n k) as [L|G].
  - rewrite Z.mul_pow2_bits_low by lia. reflexivity.
  - assert (Z.testbit b n = false) as ->; [|apply andb_false_r].
    destruct (Z.eq_dec b 0) as [->|Hz]; [apply Z.bits_0|].
    apply Z.bits_above_log2; [lia|].
    apply Z.lt_le_trans with k; [|lia]. apply Z.log2_lt_pow2; lia.
Qed.

Lemma lor_mul_pow2_add a b k : 0 <= k -> 0 <= b < 2 ^ k -> Z.lor (a * 2 ^ k) b = a * 2 ^ k + b.
Proof.
  intros Hk Hb. pose proof (land_mul_pow2_small a b k Hk Hb) as H0.
  rewrite <- Z.lxor_lor by exact H0. symmetry. apply Z.add_nocarry_lxor. exact H0.
Qed.
Lemma lor_comm_add a b k : 0 <= k -> 0 <= b < 2 ^ k -> Z.lor b (a * 2 ^ k) = a * 2 ^ k + b.
Proof. intros; rewrite Z.lor_comm; apply lor_mul_pow2_add; assumption. Qed.
Lemma lor_add_low x y k : 0 <= k -> x mod 2 ^ k = 0 -> 0 <= y < 2 ^ k -> Z.lor x y = x + y.
Proof.
  intros Hk Hx Hy. apply Z.div_exact in Hx; [|lia].
  rewrite Hx, Z.mul_comm. apply lor_mul_pow2_add; assumption.
Qed.

(* masks that the code writes as literals *)
Lemma land_1 a : Z.land a 1 = a mod 2.                  Proof. apply (land_ones_mod a 1); lia. Qed.
Lemma land_3 a : Z.land a 3 = a mod 4.                  Proof. apply (land_ones_mod a 2); lia. Qed.
Lemma land_7 a : Z.land a 7 = a mod 8.                  Proof. apply (land_ones_mod a 3); lia. Qed.
Lemma land_15 a : Z.land a 15 = a mod 16.               Proof. apply (land_ones_mod a 4); lia. Qed.
Lemma land_31 a : Z.land a 31 = a mod 32.               Proof. apply (land_ones_mod a 5); lia. Qed.
Lemma land_127 a : Z.land a 127 = a mod 128.            Proof. apply (land_ones_mod a 7); lia. Qed.
Lemma land_255 a : Z.land a 255 = a mod 256.            Proof. apply (land_ones_mod a 8); lia. Qed.
Lemma land_2047 a : Z.land a 2047 = a mod 2048.         Proof. apply (land_ones_mod a 11); lia. Qed.
Lemma land_65535 a : Z.land a 65535 = a mod 65536.      Proof. apply (land_ones_mod a 16); lia. Qed.
Lemma land_3FFFF a : Z.land a 262143 = a mod 262144.    Proof. apply (land_ones_mod a 18); lia. Qed.
Lemma land_1FFFFF a : Z.land a 2097151 = a mod 2097152. Proof. apply (land_ones_mod a 21); lia. Qed.

(* the caller first writes the literal mask as Z.ones w * 2 ^ k by `change` *)
Lemma land_high_mask a w k : 0 <= w -> 0 <= k ->
  Z.land a (Z.ones w * 2 ^ k) = ((a / 2 ^ k) mod 2 ^ w) * 2 ^ k.
Proof.
  intros Hw Hk. apply Z.bits_inj'. intros n Hn.
  rewrite Z.land_spec.
  destruct (Z.lt_ge_cases n k) as [L|G].
  - rewrite !Z.mul_pow2_bits_low by lia. apply andb_false_r.
  - rewrite !Z.mul_pow2_bits by lia.
    rewrite <- Z.land_ones by lia. rewrite Z.land_spec.
    rewrite <- Z.shiftr_div_pow2 by lia. rewrite Z.shiftr_spec by lia.
    replace (n - k + k) with n by lia. reflexivity.
Qed.

Lemma byte1 p : Z.land (Z.shiftr p 8) 255 = (p / 256) mod 256.
Proof. rewrite land_255, shiftr_div by lia. reflexivity. Qed.
Lemma byte2 p : Z.land (Z.shiftr p 16) 255 = (p / 65536) mod 256.
Proof. rewrite land_255, shiftr_div by lia. reflexivity. Qed.
Lemma byte3 p : Z.land (Z.shiftr p 24) 255 = (p / 16777216) mod 256.
Proof. rewrite land_255, shiftr_div by lia. reflexivity. Qed.

(* rewrite every shift / literal mask into * / mod with literal powers of two.
   lor must be handled by the caller with lor_add_low or its like (needs the range side condition).
   A mask that is not in the list is one more instance of land_ones_mod or land_high_mask. *)
Ltac pow2_norm :=
  repeat match goal with
  | |- context [2 ^ ?k] =>
      let k' := eval vm_compute in k in
      match k' with
      | Zpos _ => let v := eval vm_compute in (2 ^ k') in change (2 ^ k) with v
      | Z0 => change (2 ^ k) with 1
      end
  | H : context [2 ^ ?k] |- _ =>
      let k' := eval vm_compute in k in
      match k' with
      | Zpos _ => let v := eval vm_compute in (2 ^ k') in change (2 ^ k) with v in H
      | Z0 => change (2 ^ k) with 1 in H
      end
  end.

Ltac bits_to_arith :=
  rewrite ?land_1, ?land_3, ?land_7, ?land_15, ?land_31, ?land_127, ?land_255, ?land_2047,
          ?land_65535, ?land_3FFFF, ?land_1FFFFF;
  repeat (rewrite shiftl_mul by lia);
  repeat (rewrite shiftr_div by lia);
  pow2_norm.

(* ------------------------------------------------------------------ fields of a packed value
   x = lo + hi * p with lo below p: quotient and remainder by p read off hi and lo; with a field f of
   width q in between, (x / p) mod q reads off f.  The side conditions are linear, so that `lia`
   never has to look for lo and hi itself through a quotient. *)
Lemma low_at x lo hi p : 0 <= lo < p -> x = lo + hi * p -> x mod p = lo.
Proof. intros H ->. rewrite Z.mod_add by lia. apply Z.mod_small, H. Qed.
Lemma high_at x lo hi p : 0 <= lo < p -> x = lo + hi * p -> x / p = hi.
Proof. intros H ->. rewrite Z.div_add, Z.div_small by lia. reflexivity. Qed.
Lemma field_at x lo f hi p q :
  0 <= lo < p -> 0 <= f < q -> x = lo + f * p + hi * (p * q) -> (x / p) mod q = f.
Proof.
  intros Hl Hf ->. rewrite (high_at _ lo (f + hi * q) p); [|exact Hl|ring].
  apply (low_at _ f hi); [exact Hf|reflexivity].
Qed.

(* c has its own name so that a literal exponent in the goal is matched as it stands *)
Lemma pow_split v a b c : c = a + b -> 0 <= a -> 0 <= b -> v mod 2 ^ c = v mod 2 ^ a + (v / 2 ^ a) mod 2 ^ b * 2 ^ a.
Proof. intros -> Ha Hb. rewrite Z.pow_add_r, Z.rem_mul_r by lia. apply f_equal, Z.mul_comm. Qed.

Lemma le2_join x : 0 <= x < 65536 -> x mod 256 + 256 * ((x / 256) mod 256) = x.
Proof. lia. Qed.
Lemma le3_join x : 0 <= x < 16777216 -> x mod 256 + 256 * ((x / 256) mod 256) + 65536 * ((x / 65536) mod 256) = x.
Proof. lia. Qed.
Lemma le4_join x : 0 <= x < 4294967296 ->
  x mod 256 + 256 * ((x / 256) mod 256) + 65536 * ((x / 65536) mod 256) + 16777216 * ((x / 16777216) mod 256) = x.
Proof. lia. Qed.

Lemma nibbles_join c s : 0 <= c < 16 -> 0 <= s < 16 -> Z.lor (Z.land c 15) (Z.shiftl (Z.land s 15) 4) = c + 16 * s.
Proof. intros Hc Hs. rewrite !land_15, !Z.mod_small, shiftl_mul, lor_comm_add by lia. change (2 ^ 4) with 16. ring. Qed.
Lemma nibbles_low c s : 0 <= c < 16 -> Z.land (c + 16 * s) 15 = c.
Proof. intros Hc. rewrite land_15. apply (low_at _ _ s); lia. Qed.
Lemma nibbles_high c s : 0 <= c < 16 -> 0 <= s < 16 -> Z.land (Z.shiftr (c + 16 * s) 4) 15 = s.
Proof. intros Hc Hs. rewrite land_15, shiftr_div, (high_at _ c s) by lia. apply Z.mod_small, Hs. Qed.

(* ------------------------------------------------------------------ ordered tables (Python dict) *)
Section Tbl.
  Context {V : Type}.
  Definition tbl := list (Z * V).
  Fixpoint tget (t : tbl) (k : Z) : option V :=
    match t with [] => None | (k', v) :: r => if k' =? k then Some v else tget r k end.
  Fixpoint tset (t : tbl) (k : Z) (v : V) : tbl :=
    match t with
    | [] => [(k, v)]
    | (k', v') :: r => if k' =? k then (k, v) :: r else (k', v') :: tset r k v
    end.
  Fixpoint tdel (t : tbl) (k : Z) : tbl :=
    match t with [] => [] | (k', v') :: r => if k' =? k then r else (k', v') :: tdel r k end.
  Definition tkeys (t : tbl) : list Z := map fst t.
  Definition tmem (t : tbl) (k : Z) : bool := match tget t k with Some _ => true | None => false end.

  Lemma tget_tset_same t k v : tget (tset t k v) k = Some v.
  Proof.
    induction t as [|[k' v'] r IH]; cbn [tset tget].
    - rewrite Z.eqb_refl; reflexivity.
    - destruct (k' =? k) eqn:E; cbn [tget]; [rewrite Z.eqb_refl; reflexivity|rewrite E; exact IH].
  Qed.
  Lemma tget_tset_other t k k2 v : k <> k2 -> tget (tset t k v) k2 = tget t k2.
  Proof.
    intros N. induction t as [|[k' v'] r IH]; cbn [tset tget].
    - destruct (k =? k2) eqn:E; [lia|reflexivity].
    - destruct (k' =? k) eqn:E; cbn [tget].
      + assert (k' = k) by lia; subst. destruct (k =? k2) eqn:E2; [lia|reflexivity].
      + destruct (k' =? k2); [reflexivity|exact IH].
  Qed.
  Lemma tget_tdel_other t k k2 : k <> k2 -> tget (tdel t k) k2 = tget t k2.
  Proof.
    intros N. induction t as [|[k' v'] r IH]; cbn [tdel tget]; [reflexivity|].
    destruct (k' =? k) eqn:E; cbn [tget].
    - assert (k' = k) by lia; subst. destruct (k =? k2) eqn:E2; [lia|reflexivity].
    - destruct (k' =? k2); [reflexivity|exact IH].
  Qed.
  Lemma tget_single k v : tget [(k, v)] k = Some v.
  Proof. cbn [tget]. rewrite Z.eqb_refl. reflexivity. Qed.
  Lemma tset_single k v w : tset [(k, v)] k w = [(k, w)].
  Proof. cbn [tset]. rewrite Z.eqb_refl. reflexivity. Qed.
  Lemma tdel_single k v : tdel [(k, v)] k = [].
  Proof. cbn [tdel]. rewrite Z.eqb_refl. reflexivity. Qed.
  Lemma tget_in_keys t k v : tget t k = Some v -> In k (tkeys t).
  Proof.
    unfold tkeys. induction t as [|[k0 v0] r IH]; cbn [tget map fst]; [discriminate|].
    destruct (k0 =? k) eqn:E; [intros _; left; lia|intros H; right; apply IH; exact H].
  Qed.
  (* keys are unique in tables built by tset from [] *)
  Definition tnodup (t : tbl) : Prop := NoDup (tkeys t).
  Lemma tkeys_tset_in t k v x : In x (tkeys (tset t k v)) <-> x = k \/ In x (tkeys t).
  Proof.
    induction t as [|[k' v'] r IH]; cbn [tset tkeys map fst In].
    - intuition.
    - destruct (k' =? k) eqn:E; cbn [map fst In].
      + assert (k' = k) by lia; subst. intuition.
      + unfold tkeys in IH. rewrite IH. intuition.
  Qed.
  Lemma tnodup_tset t k v : tnodup t -> tnodup (tset t k v).
  Proof.
    unfold tnodup. induction t as [|[k' v'] r IH]; cbn [tset tkeys map fst]; intros H.
    - constructor; [intros []|constructor].
    - destruct (k' =? k) eqn:E; cbn [map fst].
      + assert (k' = k) by lia; subst. exact H.
      + inversion H as [|? ? Hn Hr]; subst. constructor.
        * intros Hin. apply (tkeys_tset_in r k v k') in Hin. destruct Hin as [->|Hin]; [lia|auto].
        * apply IH; exact Hr.
  Qed.
  Lemma tkeys_tdel_in t k x : In x (tkeys (tdel t k)) -> In x (tkeys t).
  Proof.
    induction t as [|[k' v'] r IH]; cbn [tdel tkeys map fst In]; [auto|].
    destruct (k' =? k); cbn [map fst In]; intuition.
  Qed.
  Lemma tnodup_tdel t k : tnodup t -> tnodup (tdel t k).
  Proof.
    unfold tnodup. induction t as [|[k' v'] r IH]; cbn [tdel tkeys map fst]; intros H; [exact H|].
    inversion H as [|? ? Hn Hr]; subst.
    destruct (k' =? k); cbn [map fst]; [exact Hr|].
    constructor; [intros Hin; apply Hn; eapply tkeys_tdel_in; exact Hin|apply IH; exact Hr].
  Qed.
  Lemma tget_tdel_same t k : tnodup t -> tget (tdel t k) k = None.
  Proof.
    unfold tnodup. induction t as [|[k' v'] r IH]; cbn [tdel tget tkeys map fst]; intros H; [reflexivity|].
    inversion H as [|? ? Hn Hr]; subst.
    destruct (k' =? k) eqn:E; cbn [tget].
    - (* the head was the only entry under k *)
      assert (k' = k) by lia; subst.
      destruct (tget r k) eqn:G; [|reflexivity]. destruct Hn. exact (tget_in_keys _ _ _ G).
    - rewrite E. apply IH. exact Hr.
  Qed.

  Lemma tget_tset_some t k v k2 v2 :
    tget (tset t k v) k2 = Some v2 -> (k2 = k /\ v2 = v) \/ (k2 <> k /\ tget t k2 = Some v2).
  Proof.
    intros H. destruct (Z.eq_dec k k2) as [<-|N].
    - rewrite tget_tset_same in H. injection H as <-. left. split; reflexivity.
    - rewrite tget_tset_other in H by exact N. right. split; [intros E; apply N; symmetry; exact E|exact H].
  Qed.
  Lemma tget_tdel_some t k k2 v2 : tnodup t -> tget (tdel t k) k2 = Some v2 -> k2 <> k /\ tget t k2 = Some v2.
  Proof.
    intros Hn H. destruct (Z.eq_dec k k2) as [<-|N].
    - rewrite tget_tdel_same in H by exact Hn. discriminate.
    - rewrite tget_tdel_other in H by exact N. split; [intros E; apply N; symmetry; exact E|exact H].
  Qed.
  Lemma tbl_all_tset (P : Z -> V -> Prop) t k v :
    (forall h b, tget t h = Some b -> P h b) -> P k v -> forall h b, tget (tset t k v) h = Some b -> P h b.
  Proof.
    intros Ht Hv h b H. destruct (tget_tset_some _ _ _ _ _ H) as [[-> ->]|[_ G]]; [exact Hv|exact (Ht h b G)].
  Qed.
  Lemma tset_tget_id t k v : tget t k = Some v -> tset t k v = t.
  Proof.
    induction t as [|[k' v'] r IH]; cbn [tget tset]; [discriminate|]. destruct (k' =? k) eqn:E.
    - intros H. injection H as ->. assert (k' = k) by lia. subst k'. reflexivity.
    - intros H. rewrite (IH H). reflexivity.
  Qed.
  Lemma tdel_tset_same t k v : tdel (tset t k v) k = tdel t k.
  Proof.
    induction t as [|[k' v'] r IH]; cbn [tset tdel].
    - rewrite Z.eqb_refl. reflexivity.
    - destruct (k' =? k) eqn:E; cbn [tdel]; [rewrite Z.eqb_refl; reflexivity|]. rewrite E, IH. reflexivity.
  Qed.
  Lemma tset_tset_same t k v w : tset (tset t k v) k w = tset t k w.
  Proof.
    induction t as [|[k' v'] r IH]; cbn [tset].
    - rewrite Z.eqb_refl. reflexivity.
    - destruct (k' =? k) eqn:E; cbn [tset]; [rewrite Z.eqb_refl; reflexivity|]. rewrite E, IH. reflexivity.
  Qed.
  Lemma tmem_tset_same t k v : tmem (tset t k v) k = true.
  Proof. unfold tmem. rewrite tget_tset_same. reflexivity. Qed.
  Lemma tmem_get t k v : tget t k = Some v -> tmem t k = true.
  Proof. unfold tmem. intros ->. reflexivity. Qed.
  Lemma tmem_none t k : tget t k = None -> tmem t k = false.
  Proof. unfold tmem. intros ->. reflexivity. Qed.
End Tbl.
Arguments tbl : clear implicits.
