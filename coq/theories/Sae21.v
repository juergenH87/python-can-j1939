(* Sae21.v — an independent statement of the SAE J1939-21 frame layouts, written from the standard's
   tables in terms of / and mod and explicit little-endian byte lists (NOT from the code's shifts and masks). *)
From J1939 Require Import Base.

(* 29-bit identifier: priority (3) | reserved+data page (2) | PDU format (8) | PDU specific (8) | source (8) *)
Definition sae_id (prio pgn18 sa : Z) : Z := prio * 67108864 + pgn18 * 256 + sa.
Definition sae_tp_cm_pgn (da : Z) : Z := 60416 + da.      (* 0xEC00 | DA *)
Definition sae_tp_dt_pgn (da : Z) : Z := 60160 + da.      (* 0xEB00 | DA *)

Definition le3 (pgn : Z) : list Z := [pgn mod 256; (pgn / 256) mod 256; (pgn / 65536) mod 256].
Definition le2 (v : Z) : list Z := [v mod 256; (v / 256) mod 256].

Inductive cm :=
| RTS (size n limit pgn : Z)      (* control 16 *)
| CTS (n next pgn : Z)            (* control 17 *)
| EOMA (size n pgn : Z)           (* control 19 *)
| BAM (size n pgn : Z)            (* control 32 *)
| ABORT (reason pgn : Z).         (* control 255 *)

Definition enc_cm (m : cm) : list Z :=
  match m with
  | RTS s n l p => [16] ++ le2 s ++ [n; l] ++ le3 p
  | CTS n x p => [17; n; x; 255; 255] ++ le3 p
  | EOMA s n p => [19] ++ le2 s ++ [n; 255] ++ le3 p
  | BAM s n p => [32] ++ le2 s ++ [n; 255] ++ le3 p
  | ABORT r p => [255; r; 255; 255; 255] ++ le3 p
  end.

Definition dec_cm (d : list Z) : option cm :=
  match d with
  | [c; b1; b2; b3; b4; p0; p1; p2] =>
      let pgn := p0 + 256 * p1 + 65536 * p2 in
      if c =? 16 then Some (RTS (b1 + 256 * b2) b3 b4 pgn)
      else if c =? 17 then Some (CTS b1 b2 pgn)
      else if c =? 19 then Some (EOMA (b1 + 256 * b2) b3 pgn)
      else if c =? 32 then Some (BAM (b1 + 256 * b2) b3 pgn)
      else if c =? 255 then Some (ABORT b1 pgn)
      else None
  | _ => None
  end.

Definition cm_wf (m : cm) : Prop :=
  match m with
  | RTS s n l p => 0 <= s < 65536 /\ 0 <= p < 16777216
  | CTS n x p => 0 <= p < 16777216
  | EOMA s n p => 0 <= s < 65536 /\ 0 <= p < 16777216
  | BAM s n p => 0 <= s < 65536 /\ 0 <= p < 16777216
  | ABORT r p => 0 <= p < 16777216
  end.

Lemma dec_enc_cm m : cm_wf m -> dec_cm (enc_cm m) = Some m.
Proof.
  destruct m; cbn [cm_wf enc_cm le2 le3 app dec_cm]; intros H;
    rewrite ?le2_join, le3_join by apply H; reflexivity.
Qed.

(* data transfer packet: 1-based sequence number, 7 data bytes, the last one padded with 0xFF *)
Definition enc_dt (seqno : Z) (seg : list Z) : list Z := seqno :: seg ++ repeat 255 (7 - length seg).
