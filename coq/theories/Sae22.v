(* Sae22.v — an independent statement of the SAE J1939-22 (CAN FD) transport frame layouts, written from the
   standard's tables in terms of / and mod and explicit little-endian byte lists (NOT from the code's shifts and
   masks), with a decoder and a reassembler of its own.  Nothing here mentions a generated definition. *)
From J1939 Require Import Base Sae21.

Definition sae_fd_cm_pgn (da : Z) : Z := 19712 + da.      (* 0x4D00 | DA *)
Definition sae_fd_dt_pgn (da : Z) : Z := 19968 + da.      (* 0x4E00 | DA *)

(* FD.TP.CM, 12 bytes: byte 1 = control type (bits 0-3) + session number (bits 4-7); bytes 2-4 total message
   size; bytes 5-7 total number of segments (CTS: next segment to send); byte 8, byte 9 per control type;
   bytes 10-12 the PGN of the packeted message; every multi-byte field least significant byte first. *)
Inductive cm22 :=
| RTS22 (session size nseg limit pgn : Z)     (* control 0: byte 8 = max segments per CTS, byte 9 = assurance data type 0 *)
| CTS22 (session next count pgn : Z)          (* control 1: size = FFFFFF, byte 8 = segments that can be sent, byte 9 = request code 0 *)
| EOMS22 (session size nseg pgn : Z)          (* control 2: byte 8 = assurance data size 0, byte 9 = assurance data type 0 *)
| EOMA22 (session size nseg pgn : Z)          (* control 3: bytes 8, 9 = FF *)
| BAM22 (session size nseg pgn : Z)           (* control 4: byte 8 = FF, byte 9 = assurance data type 0 *)
| ABORT22 (session reason pgn : Z).           (* control 15: size, segments = FFFFFF, byte 8 = FF, byte 9 = reason *)

Definition enc_cm22 (m : cm22) : list Z :=
  match m with
  | RTS22 s sz n l p   => [0 + 16 * s] ++ le3 sz ++ le3 n ++ [l; 0] ++ le3 p
  | CTS22 s x c p      => [1 + 16 * s] ++ [255; 255; 255] ++ le3 x ++ [c; 0] ++ le3 p
  | EOMS22 s sz n p    => [2 + 16 * s] ++ le3 sz ++ le3 n ++ [0; 0] ++ le3 p
  | EOMA22 s sz n p    => [3 + 16 * s] ++ le3 sz ++ le3 n ++ [255; 255] ++ le3 p
  | BAM22 s sz n p     => [4 + 16 * s] ++ le3 sz ++ le3 n ++ [255; 0] ++ le3 p
  | ABORT22 s r p      => [15 + 16 * s] ++ [255; 255; 255] ++ [255; 255; 255] ++ [255; r] ++ le3 p
  end.

Definition v3 (a b c : Z) : Z := a + 256 * b + 65536 * c.

Definition dec_cm22 (d : list Z) : option cm22 :=
  match d with
  | [b0; s0; s1; s2; n0; n1; n2; b7; b8; p0; p1; p2] =>
      let c := b0 mod 16 in let s := b0 / 16 in
      let sz := v3 s0 s1 s2 in let n := v3 n0 n1 n2 in let pgn := v3 p0 p1 p2 in
      if c =? 0 then Some (RTS22 s sz n b7 pgn)
      else if c =? 1 then Some (CTS22 s n b7 pgn)
      else if c =? 2 then Some (EOMS22 s sz n pgn)
      else if c =? 3 then Some (EOMA22 s sz n pgn)
      else if c =? 4 then Some (BAM22 s sz n pgn)
      else if c =? 15 then Some (ABORT22 s b8 pgn)
      else None
  | _ => None
  end.

Definition r24 (v : Z) : Prop := 0 <= v < 16777216.
Definition cm22_wf (m : cm22) : Prop :=
  match m with
  | RTS22 s sz n l p => 0 <= s < 16 /\ r24 sz /\ r24 n /\ r24 p
  | CTS22 s x c p => 0 <= s < 16 /\ r24 x /\ r24 p
  | EOMS22 s sz n p => 0 <= s < 16 /\ r24 sz /\ r24 n /\ r24 p
  | EOMA22 s sz n p => 0 <= s < 16 /\ r24 sz /\ r24 n /\ r24 p
  | BAM22 s sz n p => 0 <= s < 16 /\ r24 sz /\ r24 n /\ r24 p
  | ABORT22 s r p => 0 <= s < 16 /\ r24 p
  end.

Lemma v3_le3 v : r24 v -> v3 (v mod 256) ((v / 256) mod 256) ((v / 65536) mod 256) = v.
Proof. exact (le3_join v). Qed.

Lemma dec_enc_cm22 m : cm22_wf m -> dec_cm22 (enc_cm22 m) = Some m.
Proof.
  (* byte 1 is control + 16 * session: low_at and high_at take it apart *)
  destruct m; cbn [cm22_wf enc_cm22 le3 app dec_cm22]; intros H; cbv zeta;
    match goal with |- context [(?c + 16 * ?s) mod 16] =>
      rewrite (low_at _ c s 16), (high_at _ c s 16) by lia
    end;
    rewrite ?v3_le3 by apply H; reflexivity.
Qed.

(* the legal CAN FD payload lengths, and the least one that holds n bytes (n <= 64) *)
Definition fd_fit (n : Z) : Z :=
  if n <=? 8 then n else if n <=? 12 then 12 else if n <=? 16 then 16 else if n <=? 20 then 20
  else if n <=? 24 then 24 else if n <=? 32 then 32 else if n <=? 48 then 48 else 64.

(* FD.TP.DT: byte 1 = data transfer format indicator 0 (bits 0-3) + session number (bits 4-7); bytes 2-4 the
   1-based segment number; up to 60 data bytes; filled with 0xFF up to the next legal CAN FD length *)
Definition enc_dt22 (session segnum : Z) (seg : list Z) : list Z :=
  let body := [16 * session] ++ le3 segnum ++ seg in
  body ++ repeat 255 (Z.to_nat (fd_fit (Z.of_nat (length body))) - length body).

Definition dec_dt22 (d : list Z) : option (Z * Z * Z * list Z) :=      (* dtfi, session, segment number, data incl. padding *)
  match d with
  | b0 :: n0 :: n1 :: n2 :: rest => Some (b0 mod 16, b0 / 16, v3 n0 n1 n2, rest)
  | _ => None
  end.

Lemma dec_enc_dt22 s k seg : 0 <= s < 16 -> r24 k ->
  exists pad, dec_dt22 (enc_dt22 s k seg) = Some (0, s, k, seg ++ pad) /\ Forall (fun b => b = 255) pad.
Proof.
  intros Hs Hk. unfold enc_dt22. cbn [le3 app dec_dt22]. eexists. split.
  - rewrite (low_at _ 0 s 16), (high_at _ 0 s 16) by lia. rewrite v3_le3 by exact Hk. reflexivity.
  - apply Forall_forall. intros x Hx. apply repeat_spec in Hx. exact Hx.
Qed.

(* an independent receiver: given the announcement and the data frames in order, the message is the first
   `size` bytes of the concatenated segment data (each frame carries 60 bytes except the last; padding beyond
   the announced size is dropped) — provided the frames are numbered 1, 2, ... of the announced session *)
Fixpoint collect22 (session : Z) (next : Z) (frames : list (list Z)) : option (list Z) :=
  match frames with
  | [] => Some []
  | d :: r =>
      match dec_dt22 d with
      | Some (dtfi, s, k, body) =>
          if (dtfi =? 0) && (s =? session) && (k =? next)
          then match collect22 session (next + 1) r with Some t => Some (body ++ t) | None => None end
          else None
      | None => None
      end
  end.
Definition reassemble22 (session size : Z) (frames : list (list Z)) : option (list Z) :=
  match collect22 session 1 frames with
  | Some all => if Z.of_nat (length all) <? size then None else Some (firstn (Z.to_nat size) all)
  | None => None
  end.
