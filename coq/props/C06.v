(* C06 — lost frames or a vanished peer end a transfer cleanly, never with corrupt data (J1939-21 model and the
   receive side of the J1939-22 model; FD give-up times are checked by fault enumeration on the real code). *)
From J1939 Require Import Base CodecGlue Model21 Model22.
From J1939.gen Require Import Codec Tp21Gen CaGen Tp22Gen.
From J1939P Require Import CodecProofs Flat Tp21Seg Tp21Resp Tp21Orig TimeoutProofs MpgProofs PoolProofs Tp22Proofs TimeoutProofs22.

(* T06.1: exact payload or nothing — any set of DT frames carrying fewer bytes than announced delivers nothing *)
Theorem C06_lost_packet_never_delivers : forall prio sa dest frames n b,
  tget (n_rcv n) (tp21_hash sa dest) = Some b ->
  len (r_data b) + fold_right (fun f acc => len (snd (fst f)) + acc) 0 frames < r_size b ->
  no_delivery (snd (feed_any prio sa dest frames n)).
Proof. exact lost_packet_never_delivers. Qed.
Print Assumptions C06_lost_packet_never_delivers.

Theorem C06_proper_subset_too_short : forall p (m : nat),
  (8 < length p)%nat -> (m < npk (length p))%nat -> 7 * Z.of_nat m < len p.
Proof. exact proper_subset_too_short. Qed.
Print Assumptions C06_proper_subset_too_short.

(* ... and the complete sequence delivers exactly p (T01.3) — restated for reference by C01_responder_dt_phase *)

Theorem C06_timeouts_within_standard :
  tp21_T1 = 750000 /\ tp21_T2 = 1250000 /\ tp21_T3 = 1250000 /\ tp21_Th = 500000 /\ tp21_Tb = 50000.
Proof. exact timeouts_within_standard. Qed.
Print Assumptions C06_timeouts_within_standard.

(* T06.4: release at the deadline, abort (timeout) exactly for connection-mode *)
Theorem C06_rcv_timeout_releases : forall key now nw n k b,
  tget (n_rcv n) key = Some b -> r_deadline b <> 0 -> r_deadline b <= now ->
  flat (rcv_pass [key] now nw n k) =
  let n' := set_rcv n (tdel (n_rcv n) key) in
  let '(s, os, r) := flat (k n' nw) in
  (s, (if r_dst b =? addr_GLOBAL then [] else [OTx (tp21_abort (r_dst b) (r_src b) tp21_reason_TIMEOUT (r_pgn b))]) ++ os, r).
Proof. exact rcv_timeout_releases. Qed.
Print Assumptions C06_rcv_timeout_releases.

Theorem C06_rcv_untouched_before_deadline : forall key now nw n k b,
  tget (n_rcv n) key = Some b -> now < r_deadline b -> 0 <= now ->
  rcv_pass [key] now nw n k = k n (if nw >? r_deadline b then r_deadline b else nw).
Proof. exact rcv_before_deadline. Qed.
Print Assumptions C06_rcv_untouched_before_deadline.

Theorem C06_snd_timeout_releases : forall key now nw n k b,
  tget (n_snd n) key = Some b -> s_state b = ST_WAITING_CTS -> s_deadline b <> 0 -> s_deadline b <= now ->
  flat (snd_pass [key] now nw n k) =
  let n' := set_snd n (tdel (n_snd n) key) in
  let '(s, os, r) := flat (k n' nw) in
  (s, OTx (tp21_abort (s_src b) (s_dst b) tp21_reason_TIMEOUT (s_pgn b)) :: os, r).
Proof. exact snd_timeout_releases. Qed.
Print Assumptions C06_snd_timeout_releases.

(* T06.6 *)
Theorem C06_peer_abort_finishes : forall n b prio sa dest reason pgn now,
  tget (n_snd n) (tp21_hash dest sa) = Some b -> s_state b = ST_WAITING_CTS -> 0 <= pgn < 16777216 -> 0 <= reason < 255 ->
  flat (process_tp_cm prio sa dest (f_data (tp21_abort sa dest reason pgn)) now n) =
  (set_snd n (tset (n_snd n) (tp21_hash dest sa) (upd_sbuf b ST_FINISHED now (s_next b))), [], RDone 0).
Proof. exact peer_abort_finishes. Qed.
Print Assumptions C06_peer_abort_finishes.

Theorem C06_finished_session_removed : forall key now nw n k b,
  tget (n_snd n) key = Some b -> s_state b = ST_FINISHED -> s_deadline b <> 0 -> s_deadline b <= now ->
  snd_pass [key] now nw n k = k (set_snd n (tdel (n_snd n) key)) nw.
Proof. exact finished_session_removed. Qed.
Print Assumptions C06_finished_session_removed.

(* T06.1 (J1939-22): exact payload or nothing on the FD layer.  ANY sequence of FD data frames for a session (any
   segment numbers, order, repetition, instants) that together carry fewer bytes than announced, followed by ANY
   end-of-message status, delivers nothing to any listener *)
Theorem C06_fd_lost_segment_never_delivers : forall prio sa dest frames eom now m b0,
  eom_frame_ok eom ->
  let h := tp22_hash (tp22_cm_session_num eom) sa dest in
  tget (f_rcv m) h = Some b0 ->
  len (q_data b0) + fold_right (fun f acc => len (payload22 (fst f)) + acc) 0 frames < q_size b0 ->
  let '(m1, o1) := feed_dt22 prio sa dest frames m in
  no_delivery (o1 ++ fouts22 (process_tp_cm22 prio sa dest eom now m1)).
Proof. exact fd_lost_segment_never_delivers. Qed.
Print Assumptions C06_fd_lost_segment_never_delivers.

(* a segment out of sequence (every segment after a lost one) changes nothing at all *)
Theorem C06_fd_out_of_sequence_ignored : forall prio sa dest data now m b,
  tget (f_rcv m) (tp22_hash (tp22_dt_session_num data) sa dest) = Some b ->
  q_next b <> tp22_dt_segment_num data ->
  flat22 (process_tp_dt22 prio sa dest data now m) = (m, [], RDone 0).
Proof. exact dt22_out_of_sequence_ignored. Qed.
Print Assumptions C06_fd_out_of_sequence_ignored.

(* a status that does not match what was collected: nothing delivered, session released, connection-mode peer told *)
Theorem C06_fd_mismatch_aborts_and_releases : forall prio sa dest data now m b,
  eom_frame_ok data ->
  let h := tp22_hash (tp22_cm_session_num data) sa dest in
  tget (f_rcv m) h = Some b ->
  ~ (q_size b = tp22_cm_message_size data /\ q_nseg b = tp22_cm_segment_num data /\ len (q_data b) = tp22_cm_message_size data) ->
  fouts22 (process_tp_cm22 prio sa dest data now m) =
    (if dest =? addr_GLOBAL then []
     else [OTx (tp22_abort dest sa (tp22_cm_session_num data) tp22_reason_RESOURCES (q_pgn b))]) /\
  f_rcv (fnode22 (process_tp_cm22 prio sa dest data now m)) = tdel (f_rcv m) h.
Proof. exact eom_status_mismatch_delivers_nothing. Qed.
Print Assumptions C06_fd_mismatch_aborts_and_releases.

From J1939P Require NoOversleep NoOversleep22.
(* T06.9: after one pass of the transport layer the wake-up time the job thread sleeps until is not later than the deadline of
   ANY receive or send session still in a table, whatever its state and whatever the pass did — so every deadline
   (time-out, burst, BAM packet, hold refresh) is served by a pass that starts at most the scheduling latency after it *)
Theorem C06_job_thread_never_sleeps_past_a_deadline : forall n now,
  tnodup (n_rcv n) -> tnodup (n_snd n) ->
  match flat (dll_job n now (fun n' nw' => Done n' nw')) with
  | (n', _, RDone nw') => nw' <= now + 5000000 /\ NoOversleep.tm_part n' = NoOversleep.tm_part n /\
                          NoOversleep.rcv_covered n' nw' /\ NoOversleep.snd_covered n' nw'
  | (_, _, RRaise _) => True
  end.
Proof. exact NoOversleep.dll_job_wakeup_covers_every_deadline. Qed.
Print Assumptions C06_job_thread_never_sleeps_past_a_deadline.

Theorem C06_fd_job_thread_never_sleeps_past_a_deadline : forall m now,
  tnodup (f_rcv m) -> tnodup (f_mpg m) -> tnodup (f_snd m) ->
  match flat22 (dll_job22 m now (fun m' nw' => Done m' nw')) with
  | (m', _, RDone nw') => nw' <= now + 5000000 /\ NoOversleep22.covered22 m' nw'
  | (_, _, RRaise _) => True
  end.
Proof. exact NoOversleep22.dll_job22_wakeup_covers_every_deadline. Qed.
Print Assumptions C06_fd_job_thread_never_sleeps_past_a_deadline.

From J1939P Require Net21 Net21Timeout.
(* T06.10 — a vanished peer, end to end, in the closed loop of two model nodes (Net21.v): the responder never answers.  The
   network's clock advances by exactly T3 = 1.25 s; A's job thread then sends the Connection Abort (timeout) and releases the
   session; nothing was delivered anywhere, nothing is left, B is untouched *)
Theorem C06_silent_responder_abandoned_after_T3 : forall prio sa dest dp pf p t0 A0 B0,
  0 <= prio < 8 -> 0 <= sa < 255 -> 0 <= dest < 255 -> 0 <= pf < 240 -> 0 <= dp < 2 -> 8 < len p <= 1785 -> 0 < t0 ->
  n_snd A0 = [] /\ n_rcv A0 = [] /\ n_timers A0 = [] ->
  n_snd B0 = [] /\ n_rcv B0 = [] /\ n_timers B0 = [] ->
  accepts B0 dest = false ->
  let s := Net21.steps 4 (Net21.net_send (Net21.net0 A0 B0 t0) dp pf dest prio sa p) in
  Net21.qa s = [] /\ Net21.qb s = [] /\ n_snd (Net21.na s) = [] /\ n_rcv (Net21.na s) = [] /\ Net21.nb s = B0 /\
  Net21.evb s = [] /\ Net21.eva s = [] /\
  Net21.wab s = [tp21_rts sa dest prio (dp * 65536 + pf * 256) (len p) (Z.of_nat (npk (length p)))
                          (Z.min (n_maxp A0) (Z.of_nat (npk (length p))));
                 tp21_abort sa dest tp21_reason_TIMEOUT (dp * 65536 + pf * 256)] /\
  Net21.wba s = [] /\ Net21.clk s = t0 + tp21_T3.
Proof. exact Net21Timeout.silent_responder. Qed.
Print Assumptions C06_silent_responder_abandoned_after_T3.

(* T06.11 — the originator does not hear the responder: B opens a receive session and answers with a CTS that A never sees;
   after exactly 1.25 s both job threads give up in the same pass (A: T3, B: T2), the two aborts cross, nothing was
   delivered and nothing is left on either side *)
Theorem C06_unheard_responder_both_sides_give_up : forall prio sa dest dp pf p t0 A0 B0,
  0 <= prio < 8 -> 0 <= sa < 255 -> 0 <= dest < 255 -> 0 <= pf < 240 -> 0 <= dp < 2 -> 8 < len p <= 1785 -> 0 < t0 ->
  n_snd A0 = [] /\ n_rcv A0 = [] /\ n_timers A0 = [] ->
  n_snd B0 = [] /\ n_rcv B0 = [] /\ n_timers B0 = [] ->
  accepts A0 sa = false -> accepts B0 dest = true -> 1 <= n_maxp A0 -> 1 <= n_maxp B0 ->
  let s := Net21.steps 6 (Net21.net_send (Net21.net0 A0 B0 t0) dp pf dest prio sa p) in
  let pv := dp * 65536 + pf * 256 in
  let num := Z.of_nat (npk (length p)) in
  Net21.qa s = [] /\ Net21.qb s = [] /\ n_snd (Net21.na s) = [] /\ n_rcv (Net21.na s) = [] /\
  n_snd (Net21.nb s) = [] /\ n_rcv (Net21.nb s) = [] /\ Net21.evb s = [] /\ Net21.eva s = [] /\
  Net21.wab s = [tp21_rts sa dest prio pv (len p) num (Z.min (n_maxp A0) num); tp21_abort sa dest tp21_reason_TIMEOUT pv] /\
  Net21.wba s = [tp21_cts dest sa (Z.min (n_maxp B0) (Z.min (Z.min (n_maxp A0) num) num)) 1 pv;
                 tp21_abort dest sa tp21_reason_TIMEOUT pv] /\
  Net21.clk s = t0 + 1250000.
Proof. exact Net21Timeout.unheard_responder. Qed.
Print Assumptions C06_unheard_responder_both_sides_give_up.

(* T06.16: the same on J1939-22.  B does not accept the destination: A's FD RTS stays unanswered; the network's clock advances
   by exactly T3 = 1.25 s — not T5 = 3 s, which the standard reserves for the wait for the end-of-message acknowledge —, A's
   job thread sends the Connection Abort (timeout), releases the session and returns its number to the pool; nothing was
   delivered, B is untouched, nothing is left *)
From J1939P Require Net22 Net22Timeout.
Theorem C06_fd_silent_responder_abandoned_after_T3 : forall prio sa dest dp pf p t0 A0 B0,
  0 <= prio < 8 -> 0 <= sa < 255 -> 0 <= dest < 255 -> 0 <= pf < 240 -> 0 <= dp < 2 -> 60 < len p < 16777216 -> 0 < t0 ->
  f_snd A0 = [] /\ f_rcv A0 = [] /\ f_mpg A0 = [] /\ n_timers (base A0) = [] /\ n_cmdt_iv (base A0) = None /\
    accepts (base A0) sa = true /\ 1 <= n_maxp (base A0) < 256 /\ f_rts A0 = repeat true tp22_pool_rts ->
  f_snd B0 = [] /\ f_rcv B0 = [] /\ f_mpg B0 = [] /\ n_timers (base B0) = [] /\ 1 <= n_maxp (base B0) ->
  accepts (base B0) dest = false ->
  let pv := dp * 65536 + pf * 256 in
  let nseg := Z.of_nat ((length p + 59) / 60) in
  let s := Net22.steps22 4 (Net22.net22_send (Net22.net22_0 A0 B0 t0) dp pf dest prio sa p) in
  Net22.pa s = [] /\ Net22.pb s = [] /\ f_snd (Net22.fa s) = [] /\ f_rcv (Net22.fa s) = [] /\
  f_rts (Net22.fa s) = repeat true tp22_pool_rts /\ Net22.fb s = B0 /\
  Net22.evb2 s = [] /\ Net22.eva2 s = [] /\
  Net22.wab2 s = [tp22_rts prio sa dest 0 pv (len p) nseg (Z.min (n_maxp (base A0)) nseg); tp22_abort sa dest 0 tp22_reason_TIMEOUT pv] /\
  Net22.wba2 s = [] /\ Net22.fclk s = t0 + 1250000.
Proof. exact Net22Timeout.silent_responder22_abandoned_after_T3. Qed.
Print Assumptions C06_fd_silent_responder_abandoned_after_T3.

(* ------------------------------------------------------------------------------------------------------------------
   J1939-22: what one pass of the job thread does to a session whose time limit has run out — every session record,
   table and continuation.  The abort goes from the side that gives up to its peer under the session's own number; the
   originating side returns its session number to the pool it was taken from; nothing happens before the deadline. *)
Theorem C06_fd_timeouts_within_standard :
  tp22_T1 = 750000 /\ tp22_T2 = 1250000 /\ tp22_T3 = 1250000 /\ tp22_T4 = 1050000 /\ tp22_T5 = 3000000 /\ tp22_Th = 500000.
Proof. exact timeouts22_within_standard. Qed.
Print Assumptions C06_fd_timeouts_within_standard.

Theorem C06_fd_rcv_timeout_releases : forall key now nw m k b,
  tget (f_rcv m) key = Some b -> q_deadline b <> 0 -> q_deadline b <= now ->
  flat22 (rcv_pass22 [key] now nw m k) =
  let m' := set_frcv m (tdel (f_rcv m) key) in
  let '(s, os, r) := flat22 (k m' nw) in
  (s, (if q_dst b =? addr_GLOBAL then [] else [OTx (tp22_abort (q_dst b) (q_src b) (q_session b) tp22_reason_TIMEOUT (q_pgn b))]) ++ os, r).
Proof. exact rcv22_timeout_releases. Qed.
Print Assumptions C06_fd_rcv_timeout_releases.

Theorem C06_fd_rcv_untouched_before_deadline : forall key now nw m k b,
  tget (f_rcv m) key = Some b -> now < q_deadline b -> 0 <= now ->
  rcv_pass22 [key] now nw m k = k m (minw nw (q_deadline b)).
Proof. exact rcv22_before_deadline. Qed.
Print Assumptions C06_fd_rcv_untouched_before_deadline.

Theorem C06_fd_snd_timeout_releases : forall key now nw m k b,
  tget (f_snd m) key = Some b -> t_state b = tp22_st_WAITING_CTS -> t_deadline b <> 0 -> t_deadline b <= now ->
  in_pool m b ->
  exists m', returned (set_fsnd m (tdel (f_snd m) key)) b m' /\
  flat22 (snd_pass22 [key] now nw m k) =
  let '(s, os, r) := flat22 (k m' nw) in
  (s, OTx (tp22_abort (t_src b) (t_dst b) (t_session b) tp22_reason_TIMEOUT (t_pgn b)) :: os, r).
Proof. exact snd22_timeout_releases. Qed.
Print Assumptions C06_fd_snd_timeout_releases.

Theorem C06_fd_unacknowledged_session_released : forall key now nw m k b,
  tget (f_snd m) key = Some b -> t_state b = tp22_st_WAITING_EOM_ACK -> t_deadline b <> 0 -> t_deadline b <= now ->
  in_pool m b ->
  exists m', returned (set_fsnd m (tdel (f_snd m) key)) b m' /\
  snd_pass22 [key] now nw m k = k m' nw.
Proof. exact snd22_ack_wait_releases. Qed.
Print Assumptions C06_fd_unacknowledged_session_released.

Theorem C06_fd_finished_session_released : forall key now nw m k b,
  tget (f_snd m) key = Some b ->
  t_state b = tp22_st_EOM_ACK_RECEIVED \/ t_state b = tp22_st_TRANSMISSION_FINISHED ->
  t_deadline b <> 0 -> t_deadline b <= now -> in_pool m b ->
  exists m', returned (set_fsnd m (tdel (f_snd m) key)) b m' /\
  snd_pass22 [key] now nw m k = k m' nw.
Proof. exact snd22_finished_releases. Qed.
Print Assumptions C06_fd_finished_session_released.

Theorem C06_fd_snd_untouched_before_deadline : forall key now nw m k b,
  tget (f_snd m) key = Some b -> now < t_deadline b -> 0 <= now ->
  snd_pass22 [key] now nw m k = k m (minw nw (t_deadline b)).
Proof. exact snd22_before_deadline. Qed.
Print Assumptions C06_fd_snd_untouched_before_deadline.

Theorem C06_fd_returned_number_is_free : forall m b m',
  in_pool m b -> returned m b m' ->
  nth_error (if t_dst b =? addr_GLOBAL then f_bam m' else f_rts m') (Z.to_nat (t_session b)) = Some true.
Proof. exact returned_is_free. Qed.
Print Assumptions C06_fd_returned_number_is_free.
